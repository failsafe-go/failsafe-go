(* C16 / C02: exhaustion is final.  Once a retry policy has logged OnRetriesExceeded it logs nothing more, however often
   the policies around it re-enter it: it remembers (in the execution's ledger) that it is exhausted and hands results
   through.  By the log relations of Proofs/ExecSteps.v ([log_rel]); the invariant: "the log shows OnRetriesExceeded for
   position p  ==>  p is a retry policy and its ledger says exhausted". *)
From FS Require Import Model.Exec Spec.Verdict Proofs.ExecProofs Proofs.ExecSteps Proofs.ExecRetryEvents Proofs.ExecEventsProofs.
From FS Require Import Corr.ExecCorr Corr.ExecCheckers.

Definition xst (pos : nat) (w : world) : option bool := xstk pos (kps w).

Lemma xstep_neutral pos k s : verdict_kind (fst k) = false \/ snd k <> pos -> xstep pos k s = s.
Proof.
  intros H. unfold xstep. destruct s as [ex|]; [|reflexivity].
  destruct H as [H|H]; [rewrite H, andb_false_r; reflexivity|].
  destruct (Nat.eqb (snd k) pos) eqn:E; [apply Nat.eqb_eq in E; contradiction|reflexivity].
Qed.

Section Stack.
Variable stk : list policy.       (* the whole stack of the execution *)

Definition retry_pos (q : nat) : bool := match nth_error stk q with Some (PRetry _) => true | _ => false end.

Definition XJ (w : world) : Prop :=
  forall pos, match xst pos w with
              | None => False
              | Some true => retry_pos pos = true /\ rs_exceeded (get_rstate w pos) = true
              | Some false => True
              end.
Definition XJrel (w w' : world) : Prop := XJ w -> XJ w'.

Definition Nx (k : evk) (q : nat) : Prop :=
  verdict_kind k = false \/ (retry_pos q = false /\ (k = KPolFailure \/ k = KPolSuccess)).
(* no ledger write is let through (only a retry policy writes, and its loop is walked on its own) *)
Definition Px (q : nat) : Prop := False.

Lemma Nx_plain k q : plain_kind k = true -> Nx k q.
Proof. intros H. left. destruct k; cbn in H; try discriminate; reflexivity. Qed.

Lemma x_refl w : XJrel w w. Proof. intros H. exact H. Qed.
Lemma x_trans a b c : XJrel a b -> XJrel b c -> XJrel a c. Proof. unfold XJrel. auto. Qed.
Lemma x_frame w w' : w_trace w' = w_trace w -> w_retry w' = w_retry w -> XJrel w w'.
Proof.
  intros Ht Hr HJ pos. specialize (HJ pos). unfold xst, kps in *. rewrite Ht. rewrite (get_rstate_ext _ _ pos Hr). exact HJ.
Qed.
Lemma x_put w q r : Px q -> XJrel w (put_rstate w q r). Proof. intros []. Qed.
Lemma x_emit w k q o aux : Nx k q -> XJrel w (emit w k q o aux).
Proof.
  intros HN HJ pos. specialize (HJ pos). unfold xst in *. rewrite kps_emit. cbn [xstk].
  assert (Hg : get_rstate (emit w k q o aux) pos = get_rstate w pos) by (apply get_rstate_ext; reflexivity). rewrite Hg.
  destruct HN as [Hk|[Hq Hk]].
  - rewrite xstep_neutral; [exact HJ|left; exact Hk].
  - destruct (Nat.eq_dec q pos) as [->|Hne]; [|rewrite xstep_neutral; [exact HJ|right; exact Hne]].
    destruct (xstk pos (kps w)) as [[|]|]; [destruct HJ as [Hr _]; congruence| |contradiction].
    unfold xstep. cbn [fst snd]. rewrite Nat.eqb_refl. destruct Hk as [->| ->]; exact I.
Qed.
Lemma x_stamp w c : XJrel w (stamp w c).
Proof.
  intros HJ pos. specialize (HJ pos). unfold xst in *. rewrite kps_stamp.
  pose proof (get_rstate_stamp w c pos) as Hg.
  rewrite Hg. exact HJ.
Qed.
Lemma XJ_log : log_rel XJrel Nx Px.
Proof.
  split; [apply x_refl|apply x_trans|apply x_frame|apply x_put|apply x_emit|apply x_stamp|].
  intros k q H. apply Nx_plain, plain_verdict, H.
Qed.

Lemma XJ_drain w : XJ w -> XJ (drain w).
Proof. exact (drain_log XJ_log w). Qed.

Definition xsame (q : nat) (w w' : world) : Prop := xst q w' = xst q w /\ get_rstate w' q = get_rstate w q.
Definition Nq (q : nat) (k : evk) (q' : nat) : Prop := verdict_kind k = false \/ q' <> q.
Definition Pq (q : nat) (q' : nat) : Prop := q' <> q.

Lemma q_refl q w : xsame q w w. Proof. split; reflexivity. Qed.
Lemma q_trans q a b c : xsame q a b -> xsame q b c -> xsame q a c. Proof. intros [A1 A2] [B1 B2]. split; congruence. Qed.
Lemma q_frame q w w' : w_trace w' = w_trace w -> w_retry w' = w_retry w -> xsame q w w'.
Proof. intros Ht Hr. split; [unfold xst, kps; rewrite Ht; reflexivity|apply get_rstate_ext, Hr]. Qed.
Lemma q_put q w q' r : Pq q q' -> xsame q w (put_rstate w q' r).
Proof. intros H. split; [reflexivity|apply get_put_rstate_other, H]. Qed.
Lemma q_emit q w k q' o aux : Nq q k q' -> xsame q w (emit w k q' o aux).
Proof. intros H. split; [unfold xst; rewrite kps_emit; cbn [xstk]; apply xstep_neutral; exact H|apply get_rstate_ext; reflexivity]. Qed.
Lemma q_stamp q w c : xsame q w (stamp w c).
Proof. split; [unfold xst; rewrite kps_stamp; reflexivity|apply get_rstate_stamp]. Qed.
Lemma Nq_plain q k q' : plain_kind k = true -> Nq q k q'.
Proof. intros H. left. destruct k; cbn in H; try discriminate; reflexivity. Qed.
Lemma xsame_log q : log_rel (xsame q) (Nq q) (Pq q).
Proof.
  split; [apply q_refl|apply q_trans|apply q_frame|apply q_put|apply q_emit|apply q_stamp|].
  intros k q' H. apply Nq_plain, plain_verdict, H.
Qed.

Theorem compose_xquiet q fuel stack : forall start total, (q < start)%nat -> quiet (xsame q) (compose fuel start stack total).
Proof.
  intros start total Hlt c w. apply (compose_log (xsame_log q)).
  - intros k q' (p & Hq & _). right. lia.
  - intros q' (cfg & Hq & _). unfold Pq. lia.
Qed.

(* The retry policy at q leaves automaton and ledger of the other positions where they are ([xsame pos]); left to check is
   position q. *)
Lemma XJ_own q w w' : (forall pos, pos <> q -> xsame pos w w') -> XJ w ->
  match xst q w' with
  | None => False
  | Some true => retry_pos q = true /\ rs_exceeded (get_rstate w' q) = true
  | Some false => True
  end -> XJ w'.
Proof. intros Ho HJ Hq pos. destruct (Nat.eq_dec pos q) as [->|Hne]; [exact Hq|]. destruct (Ho pos Hne) as [-> ->]. apply HJ. Qed.

Lemma XJ_step w w' q k : kps w' = (k, q) :: kps w -> (forall pos, pos <> q -> get_rstate w' pos = get_rstate w pos) -> XJ w ->
  match xstep q (k, q) (xst q w) with
  | None => False | Some true => retry_pos q = true /\ rs_exceeded (get_rstate w' q) = true | Some false => True end -> XJ w'.
Proof.
  intros E Hr HJ Hq. apply (XJ_own q w w'); [|exact HJ|unfold xst; rewrite E; exact Hq].
  intros pos Hp. split; [|exact (Hr pos Hp)]. unfold xst. rewrite E. apply xstep_neutral. right. exact (not_eq_sym Hp).
Qed.

Lemma xstep_own q k s : xstep q (k, q) s = xstep 0 (k, 0%nat) s.
Proof. unfold xstep. cbn [fst snd]. rewrite Nat.eqb_refl. reflexivity. Qed.

Lemma XJ_event w q k : XJ w -> xst q w = Some false -> k <> KRetriesExceeded ->
  forall w1 o aux c, w_trace w1 = w_trace w -> w_retry w1 = w_retry w ->
  XJ (stamp (emit w1 k q o aux) c) /\ xst q (stamp (emit w1 k q o aux) c) = Some false.
Proof.
  intros HJ Hx Hk w1 o aux c Et Er.
  assert (E : xst q (stamp (emit w1 k q o aux) c) = Some false).
  { unfold xst. rewrite kps_stamp, kps_emit. unfold kps. rewrite Et. fold (kps w). cbn [xstk]. fold (xst q w).
    rewrite Hx, xstep_own. destruct k; try reflexivity. contradiction. }
  split; [|exact E]. apply (XJ_own q w); [|exact HJ|rewrite E; exact I].
  intros pos Hne. apply (semit_log (xsame_log pos)); auto. right. auto.
Qed.

Lemma XJ_failure cfg q c r w : retry_pos q = true -> XJ w -> xst q w = Some false ->
  XJ (snd (retry_on_failure cfg q c r w))
  /\ (pr_done (fst (retry_on_failure cfg q c r w)) = false -> xst q (snd (retry_on_failure cfg q c r w)) = Some false).
Proof.
  intros Hrp HJ Hx. destruct (retry_failure_events cfg q c r w) as (Ek & _ & Hdone & Hex).
  set (w0 := pause _ _) in *. set (ex := _ || _) in *. set (ab := is_abortable _ _) in *.
  assert (X0 : xst q w0 = Some false).
  { subst w0. rewrite (proj1 (pause_log (xsame_log q) _ _)). apply (XJ_event w q KPolFailure HJ Hx); [discriminate|reflexivity..]. }
  assert (Xq : xst q (snd (retry_on_failure cfg q c r w)) = Some (ex && negb ab))
    by (unfold xst; rewrite Ek; destruct ab, ex; cbn [negb andb orb app xstk]; fold (xst q w0); rewrite X0, ?xstep_own; reflexivity).
  split.
  - apply (XJ_own q w); [|exact HJ|].
    + intros pos Hne. apply (retry_on_failure_log (xsame_log pos)); [exact (not_eq_sym Hne)|right; auto..].
    + rewrite Xq, Hex. destruct ex, ab; cbn [andb negb]; auto.
  - intros Hd. rewrite Xq. destruct ab, ex; try reflexivity; rewrite Hdone in Hd by reflexivity; discriminate.
Qed.

Lemma retry_loop_XJ q cfg inner : retry_pos q = true -> quiet XJrel inner ->
  forall fuel c w, XJ w -> XJ (snd (fst (retry_loop fuel cfg q inner c w))).
Proof.
  intros Hrp Hj fuel c.
  (* not exhausted according to the ledger, hence according to the log *)
  assert (X1 : forall w, XJ w -> rs_exceeded (get_rstate w q) = false -> xst q w = Some false).
  { intros w HJ Ex. specialize (HJ q). destruct (xst q w) as [[|]|]; [destruct HJ as [_ H]; congruence|reflexivity|contradiction]. }
  apply (retry_loop_inv q cfg inner c XJ (fun w => xst q w = Some false) (fun w => xst q w = Some false)).
  - exact (fun _ H => H).
  - apply Hj.
  - intros w r HJ Ex. apply (XJ_event w q KPolSuccess HJ (X1 w HJ Ex)); [discriminate|reflexivity..].
  - intros w r HJ Ex. apply (XJ_failure cfg q c r w Hrp HJ (X1 w HJ Ex)).
  - intros w o o' d HJ HF. apply (XJ_event w q KRetryScheduled HJ HF); [discriminate|reflexivity..].
  - intros w d HJ HP. split; [exact (wait_log XJ_log w d _ HJ)|rewrite (proj1 (wait_log (xsame_log q) w d _)); exact HP].
  - intros w o aux HJ HP. apply (XJ_event w q KRetry HJ HP); [discriminate|reflexivity..].
Qed.

Theorem compose_XJ fuel : forall stack start total, (forall i, nth_error stack i = nth_error stk (start + i)) ->
  quiet XJrel (compose fuel start stack total).
Proof.
  intros stack start total Hs. apply compose_ind; [intros c w; apply (fn_layer_log XJ_log)|].
  intros i p inner Hi IH.
  assert (Hr : retry_pos (start + i) = match p with PRetry _ => true | _ => false end) by (unfold retry_pos; rewrite <- Hs, Hi; reflexivity).
  destruct p as [rc| | | | | | |]; [intros c w; exact (retry_loop_XJ _ rc _ Hr IH fuel c w)|..];
    intros ? ?; (apply (other_policy_log XJ_log); [discriminate|right; auto|right; auto|exact IH]).
Qed.

End Stack.

Theorem exhaustion_is_final fuel stack now ext key b l k c script :
  forall pos, xstk pos (kps (drain (snd (execute fuel stack (fresh_world now ext key b l k c script))))) <> None.
Proof.
  assert (JF : XJ stack (drain (snd (execute fuel stack (fresh_world now ext key b l k c script))))).
  { apply (run_log (XJ_log stack) fuel stack now ext key b l k c script); [|intros pos; cbn; exact I].
    apply (compose_XJ stack fuel stack 0%nat (length stack)). intros i. reflexivity. }
  intros pos. specialize (JF pos). unfold xst in JF. destruct (xstk pos _) as [[|]|]; [discriminate|discriminate|contradiction].
Qed.

Lemma xfold_filter pos (f : event -> bool) : (forall e, f e = false -> verdict_kind (e_kind e) = false) ->
  forall l s, fold_left (fun s k => xstep pos k s) (map kp (filter f l)) s = fold_left (fun s k => xstep pos k s) (map kp l) s.
Proof. intros H. apply fold_kp_filter. intros e s E. apply xstep_neutral. left. exact (H e E). Qed.

Theorem exhaustion_checker_accepts_model fuel stack now ext key b l k c script lsn mask q o :
  q_stack q = stack ->
  x_events o = filter (blsn_keeps mask) (filter (lsn_keeps lsn)
     (rev (w_trace (drain (snd (execute fuel stack (fresh_world now ext key b l k c script))))))) ->
  exhaustion_ok q o = true.
Proof.
  intros Hs Ho. unfold exhaustion_ok. apply forallb_forall. intros pos _. rewrite Ho.
  change (map (fun e => (e_kind e, e_pos e))) with (map kp). unfold xrun.
  rewrite !fold_kp_filter
    by (intros e s H; apply xstep_neutral; left; revert H; (apply blsn_keeps_verdict || apply lsn_keeps_verdict)).
  fold (xrun pos (map kp (rev (w_trace (drain (snd (execute fuel stack (fresh_world now ext key b l k c script)))))))).
  rewrite xrun_xstk, <- map_rev, rev_involutive.
  pose proof (exhaustion_is_final fuel stack now ext key b l k c script pos) as H. unfold kps in H.
  destruct (xstk pos _); [reflexivity|contradiction].
Qed.
