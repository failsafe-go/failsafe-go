(* C12.  errors.Is and errorAs are one search of the tree that Unwrap spans, with two different tests at the nodes, and
   [reaches] is that tree's reflexive-transitive closure: both mirrors are instances of search_spec.  The builders
   are folds that append each call's conditions; the documented rules read off the appended list. *)
From FS Require Import Spec.ClassifySpec Proofs.Trace.
From Coq Require Import Permutation.

(* what Unwrap() error / Unwrap() []error yields; an ExceededError without a last error unwraps to a fresh value *)
Definition children (e : err) : list err :=
  match e with
  | EWrap x | EExceeded _ (Some x) => [x]
  | EJoin xs => xs
  | EExceeded _ None => [EAnon]
  | _ => []
  end.

(* the induction principle the nested inductive [err] does not get by itself *)
Fixpoint err_children_ind (P : err -> Prop) (H : forall e, Forall P (children e) -> P e) (e : err) : P e :=
  H e (match e return Forall P (children e) with
       | EWrap x | EExceeded _ (Some x) => Forall_cons x (err_children_ind P H x) (Forall_nil P)
       | EJoin xs => (fix go l : Forall P l :=
                        match l with
                        | [] => Forall_nil P
                        | x :: l' => Forall_cons x (err_children_ind P H x) (go l')
                        end) xs
       | EExceeded _ None => Forall_cons EAnon (H EAnon (Forall_nil P)) (Forall_nil P)
       | _ => Forall_nil P
       end).

Lemma reaches_children e n : reaches e n <-> n = e \/ exists x, In x (children e) /\ reaches x n.
Proof.
  split.
  - intros [| | | |]; cbn [children In]; eauto 6 using reach_refl.
  - intros [->|(x & Hin & Hr)]; [apply reach_refl|].
    destruct e as [| | | | | |?|?|? [?|]| | | | | | | | | ]; cbn [children In] in Hin; try contradiction;
      try (destruct Hin as [<-|[]]); eauto using reaches.
    (* left: EExceeded _ None, whose fresh child is a leaf *)
    inversion Hr; subst; constructor.
Qed.

Lemma search_spec (f test : err -> bool) :
  (forall e, f e = test e || existsb f (children e)) ->
  forall e, f e = true <-> exists n, reaches e n /\ test n = true.
Proof.
  intros Hf e. induction e as [e IH] using err_children_ind. rewrite Forall_forall in IH.
  rewrite Hf, Bool.orb_true_iff, existsb_exists. setoid_rewrite reaches_children. split.
  - intros [H|(x & Hin & Hx)]; [eauto|]. apply IH in Hx; [|exact Hin]. destruct Hx as (n & Hr & Hn). eauto 7.
  - intros (n & [->|(x & Hin & Hr)] & Hn); [auto|]. right. exists x. split; [exact Hin|]. apply IH; eauto.
Qed.

Lemma errors_is_children t e :
  errors_is e t = (err_ideq e t || has_is_method e t) || existsb (fun x => errors_is x t) (children e).
Proof.
  destruct e as [| | | | | |?|?|? [?|]| | | | | | | | | ]; cbn [errors_is has_is_method children existsb];
    rewrite ?Bool.orb_false_r; reflexivity.
Qed.

Lemma error_as_children tt e :
  error_as e tt = assignable e tt || existsb (fun x => error_as x tt) (children e).
Proof.
  destruct e as [| | | | | |?|?|? [?|]| | | | | | | | | ]; cbn [error_as children existsb];
    rewrite ?Bool.orb_false_r; reflexivity.
Qed.

Theorem errors_is_spec e t : errors_is e t = true <-> is_documented e t.
Proof.
  unfold is_documented. rewrite (search_spec _ _ (errors_is_children t)).
  now setoid_rewrite Bool.orb_true_iff.
Qed.

Theorem error_as_spec e tt : error_as e tt = true <-> type_documented e tt.
Proof. exact (search_spec _ _ (error_as_children tt) e). Qed.

Lemma apply_hcall_conds p c : f_conds (apply_hcall p c) = f_conds p ++ conds_of_hcall c.
Proof. destruct c; reflexivity. Qed.

Lemma apply_hcall_checked p c : f_errors_checked (apply_hcall p c) = f_errors_checked p || error_handling_call c.
Proof. destruct c; cbn [apply_hcall f_errors_checked error_handling_call]; auto using Bool.orb_true_r, Bool.orb_false_r. Qed.

Lemma build_fpolicy_conds calls : f_conds (build_fpolicy calls) = all_conds calls.
Proof. exact (fold_left_appends _ _ _ apply_hcall_conds calls fpolicy_empty). Qed.

Lemma build_fpolicy_checked calls :
  f_errors_checked (build_fpolicy calls) = existsb error_handling_call calls.
Proof. exact (fold_left_ors _ _ _ apply_hcall_checked calls fpolicy_empty). Qed.

Theorem is_failure_documented calls o :
  is_failure (build_fpolicy calls) o = documented_is_failure calls o.
Proof.
  unfold is_failure, documented_is_failure, applies_to_any.
  rewrite build_fpolicy_conds, build_fpolicy_checked.
  destruct (all_conds calls) as [|c cs]; [reflexivity|].
  destruct (existsb (cond_matches o) (c :: cs)); reflexivity.
Qed.

Lemma existsb_false {A} (f : A -> bool) l : existsb f l = false <-> forall x, In x l -> f x = false.
Proof.
  rewrite <- Bool.not_true_iff_false, existsb_exists. split.
  - intros H x Hin. destruct (f x) eqn:E; [exfalso; eauto|reflexivity].
  - intros H (x & Hin & Hx). rewrite (H x Hin) in Hx. discriminate.
Qed.

Theorem is_failure_truth_table calls o :
  is_failure (build_fpolicy calls) o = true <->
    (all_conds calls = [] /\ has_err o = true)
    \/ (exists c, In c (all_conds calls) /\ cond_matches o c = true)
    \/ (has_err o = true /\ forall c, In c calls -> error_handling_call c = false).
Proof.
  rewrite is_failure_documented. unfold documented_is_failure. rewrite <- existsb_false, <- existsb_exists.
  destruct (all_conds calls) as [|c cs].
  - cbn [existsb]. intuition discriminate.
  - rewrite Bool.orb_true_iff, Bool.andb_true_iff, Bool.negb_true_iff. intuition discriminate.
Qed.

Theorem result_cond_only_without_error r k e : cond_matches (r, Some e) (CResult k) = false.
Proof. reflexivity. Qed.

Theorem result_cond_deep_equal r k : cond_matches (r, None) (CResult k) = Z.eqb r k.
Proof. reflexivity. Qed.

Theorem is_failure_documented_refuted_before_fix :
  exists calls o, is_failure_prefix (build_fpolicy calls) o <> documented_is_failure calls o.
Proof.
  exists [HandleErrors [ESent 0]; HandleResult 0], (0, Some (ESent 1)).
  vm_compute. discriminate.
Qed.

Lemma existsb_perm {A} (f : A -> bool) l l' : Permutation l l' -> existsb f l = existsb f l'.
Proof.
  induction 1 as [| x l l' Hp IH | x y l | l l' l'' H1 IH1 H2 IH2]; cbn.
  - reflexivity.
  - now rewrite IH.
  - destruct (f x), (f y); reflexivity.
  - congruence.
Qed.

Theorem order_irrelevant calls calls' o :
  Permutation calls calls' ->
  is_failure (build_fpolicy calls) o = is_failure (build_fpolicy calls') o.
Proof.
  intros Hp. rewrite !is_failure_documented. unfold documented_is_failure.
  assert (Hc : Permutation (all_conds calls) (all_conds calls')) by apply Permutation_flat_map, Hp.
  rewrite (existsb_perm error_handling_call _ _ Hp).
  destruct (all_conds calls) as [|c cs] eqn:E1, (all_conds calls') as [|c' cs'] eqn:E2.
  - reflexivity.
  - apply Permutation_nil in Hc. discriminate.
  - apply Permutation_sym, Permutation_nil in Hc. discriminate.
  - now rewrite (existsb_perm (cond_matches o) _ _ Hc).
Qed.

Lemma apply_acall_conds cs c : apply_acall cs c = cs ++ conds_of_acall c.
Proof. destruct c; reflexivity. Qed.

Lemma build_abort_conds calls : build_abort calls = flat_map conds_of_acall calls.
Proof. exact (fold_left_appends _ (fun cs => cs) _ apply_acall_conds calls []). Qed.

Theorem is_abortable_documented calls o :
  is_abortable (build_abort calls) o = documented_is_abortable calls o.
Proof. unfold is_abortable, applies_to_any. now rewrite build_abort_conds. Qed.

Theorem abort_none_configured_never_aborts o : is_abortable (build_abort []) o = false.
Proof. reflexivity. Qed.

Theorem hedge_cancel_documented calls o :
  is_abortable (build_hedge_cancel calls) o = documented_hedge_cancels calls o.
Proof.
  unfold build_hedge_cancel, documented_hedge_cancels, is_abortable, applies_to_any.
  rewrite build_abort_conds. destruct (flat_map conds_of_acall calls); reflexivity.
Qed.

(* Non-vacuity: a mixed registration list on concrete outcomes. *)
Example classify_examples :
  let calls := [HandleErrors [ESent 0]; HandleResult 7; HandleErrorTypes [TgtErr (ETypedV 1 0)]] in
  is_failure (build_fpolicy calls) (7, None) = true /\
  is_failure (build_fpolicy calls) (7, Some (ESent 1)) = false /\
  is_failure (build_fpolicy calls) (0, Some (EWrap (EJoin [ESent 3; EWrap (ESent 0)]))) = true /\
  is_failure (build_fpolicy calls) (0, Some (EWrap (ETypedV 1 5))) = true /\
  is_failure (build_fpolicy calls) (0, Some (ETypedVP 1 5)) = false /\
  is_failure (build_fpolicy [HandleResult 7]) (0, Some (ESent 1)) = true.
Proof. vm_compute. repeat split. Qed.
