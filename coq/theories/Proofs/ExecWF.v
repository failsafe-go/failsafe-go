(* Worlds are well formed: the caller's scope exists, every execution copy's chain of cancel scopes lies within the
   scopes that exist, every background attempt belongs to an existing copy and to the current or an earlier hedged run.
   Established by [fresh_world], kept by every step of Proofs/ExecSteps.v, hence by every layer of every stack; the
   premises of Proofs/ExecHedgeLosers.v (C09) follow from it ([hedge_layer_one_left_wf]). *)
From FS Require Import Model.Exec Proofs.ExecProofs Proofs.ExecSteps Proofs.ExecHedgeLosers.

Definition okc (c : nat) (w : world) : Prop := (c < length (w_copies w))%nat.

Record Wf (w : world) : Prop := {
  wf_sc : (1 <= length (w_scopes w))%nat;
  wf_cp : Forall (fun cp => forall s, In s (cp_chain cp) -> (s < length (w_scopes w))%nat) (w_copies w);
  wf_bg : Forall (fun b => okc (bg_copy b) w /\ (bg_grp b <= hs_grp (w_hs w))%nat) (w_bg w) }.

Lemma Wf_frame w w' :
  (length (w_scopes w) <= length (w_scopes w'))%nat -> w_copies w' = w_copies w -> w_bg w' = w_bg w ->
  (hs_grp (w_hs w) <= hs_grp (w_hs w'))%nat -> Wf w -> Wf w'.
Proof.
  intros Es Ec Eb Eg [H1 H2 H3]. constructor; rewrite ?Ec, ?Eb.
  - lia.
  - eapply Forall_impl; [|exact H2]. intros cp Hcp s Hs. specialize (Hcp s Hs). lia.
  - eapply Forall_impl; [|exact H3]. intros b [A B]. unfold okc in *. rewrite Ec. split; [exact A|lia].
Qed.

Lemma okc_frame c w w' : w_copies w' = w_copies w -> okc c w -> okc c w'.
Proof. unfold okc. intros ->. auto. Qed.

Lemma Wf_upd_copies w c f : (forall cp, cp_chain (f cp) = cp_chain cp) -> Wf w -> Wf (set_copies w (upd c f (w_copies w))).
Proof.
  intros Hf [H1 H2 H3]. constructor; cbn [w_scopes w_copies w_bg w_hs set_copies]; [exact H1| |].
  - apply Forall_upd; [exact H2|]. intros cp Hcp s Hs. rewrite Hf in Hs. apply Hcp, Hs.
  - eapply Forall_impl; [|exact H3]. intros b [A B]. unfold okc in *. cbn [w_copies set_copies]. rewrite upd_length. auto.
Qed.

Lemma chain_ok c w : okc c w -> Wf w -> forall s, In s (cp_chain (get_copy w c)) -> (s < length (w_scopes w))%nat.
Proof.
  intros Hc H. pose proof (wf_cp _ H) as Hcp. rewrite Forall_forall in Hcp.
  apply (Hcp (nth c (w_copies w) dflt_copy)). apply nth_In. exact Hc.
Qed.

Lemma Wf_push w c sc q e last start : okc c w -> Wf w ->
  Wf (set_copies (set_scopes w (w_scopes w ++ [sc]) q e)
        (w_copies w ++ [ {| cp_chain := length (w_scopes w) :: cp_chain (get_copy w c); cp_last := last; cp_start := start |} ])).
Proof.
  intros Hc H. pose proof (chain_ok c w Hc H) as Hch. destruct H as [H1 H2 H3].
  constructor; cbn [w_scopes w_copies w_bg w_hs set_copies set_scopes]; rewrite ?app_length; cbn [length].
  - lia.
  - apply Forall_app. split.
    + eapply Forall_impl; [|exact H2]. intros cp Hcp s Hs. specialize (Hcp s Hs). lia.
    + constructor; [|constructor]. cbn [cp_chain]. intros s [<-|Hs]; [lia|]. specialize (Hch s Hs). lia.
  - eapply Forall_impl; [|exact H3]. intros b [A B]. unfold okc in *. cbn [w_copies set_copies set_scopes]. rewrite app_length. split; [lia|exact B].
Qed.

Lemma Wf_set_hedge w h bg hs :
  Forall (fun b => okc (bg_copy b) w /\ (bg_grp b <= hs_grp hs)%nat) bg -> Wf w -> Wf (set_hedge w h bg hs).
Proof. intros Hbg [H1 H2 H3]. constructor; cbn [w_scopes w_copies w_bg w_hs set_hedge]; assumption. Qed.

Lemma step_Wf A B w w' : step True A B no_call w w' -> Wf w -> Wf w'.
Proof.
  assert (Hst : forall a c, Wf a -> Wf (stamp a c))
    by (intros a c; apply Wf_frame; rewrite ?(stamp_same w_scopes), ?(stamp_same w_copies), ?(stamp_same w_bg), ?(stamp_same w_hs); auto).
  destruct 1; intros Hw; try apply Hst;
    try (eapply Wf_frame; [..|exact Hw]; try reflexivity; cbn [w_scopes w_hs set_scopes set_hedge hs_grp]; lia).
  - (* S_last *) apply Wf_upd_copies; [|exact Hw]. reflexivity.
  - (* S_push *) exact (Wf_push w c sc q e last _ (H I) Hw).
  - (* S_retry *) eapply Wf_frame; [..|apply (Wf_upd_copies w c); [|exact Hw]]; reflexivity.
  - (* S_bg *) apply Wf_set_hedge; [|exact Hw]. apply Forall_forall. intros b' Hb'. destruct (H b' Hb') as (b & Hin & E1 & E2).
    pose proof (wf_bg _ Hw) as Hb. rewrite Forall_forall in Hb. unfold okc in *. rewrite E1, E2. exact (Hb b Hin).
  - (* S_bg_new *) apply Wf_set_hedge; [|exact Hw]. constructor; [split; [exact (H I)|lia]|exact (wf_bg _ Hw)].
  - (* S_call *) destruct H.
Qed.

Definition Step (w w' : world) : Prop := Wf w' /\ (length (w_copies w) <= length (w_copies w'))%nat.
Definition pres (l : layer) : Prop := forall c w, okc c w -> Wf w -> Step w (snd (l c w)).

Lemma Wf_bg_copies w : Wf w -> bg_copies_exist w.
Proof. intros Hw. eapply Forall_impl; [|exact (wf_bg _ Hw)]. cbn beta. tauto. Qed.

Lemma apply_policy_pres fuel q total p inner : pres inner -> pres (apply_policy fuel q total p inner).
Proof. exact (apply_policy_keeps Wf step_Wf Wf_bg_copies fuel q total p inner). Qed.

Theorem compose_pres fuel stack : forall pos total, pres (compose fuel pos stack total).
Proof. intros pos total. exact (compose_keeps Wf step_Wf Wf_bg_copies fuel stack pos total). Qed.

Lemma fresh_world_Wf now ext key b l k c script : Wf (fresh_world now ext key b l k c script) /\ okc 0 (fresh_world now ext key b l k c script).
Proof.
  pose proof (fresh_world_steps True no_event no_write no_call now ext key b l k c script) as Hs.
  split.
  - apply (steps_inv Wf (step_Wf _ _) Hs). constructor; cbn [fresh_world0 w_scopes w_copies w_bg w_hs length].
    + lia.
    + constructor; [|constructor]. cbn [cp_chain]. intros s [<-|[]]. lia.
    + constructor.
  - pose proof (steps_copies I Hs) as L. unfold okc. cbn [fresh_world0 w_copies length] in L. lia.
Qed.

Theorem execution_worlds_well_formed fuel stack now ext key b l k c script :
  Wf (snd (compose fuel 0 stack (length stack) 0%nat (fresh_world now ext key b l k c script))).
Proof.
  destruct (fresh_world_Wf now ext key b l k c script) as [H0 C0].
  exact (proj1 (compose_pres fuel stack 0%nat (length stack) 0%nat _ C0 H0)).
Qed.

Theorem hedge_layer_one_left_wf pos total cfg c w : okc c w -> Wf w -> one_left c [] (snd (hedge_layer pos total cfg c w)).
Proof.
  intros Hc H. apply hedge_layer_one_left.
  - exact (wf_sc _ H).
  - exact Hc.
  - exact (chain_ok c w Hc H).
  - intros b0 Hb. pose proof (wf_bg _ H) as Hbg. rewrite Forall_forall in Hbg. exact (proj2 (Hbg b0 Hb)).
Qed.
