(* C03: failure rate and success rate of a counting window never add up to less than 100 (circuitbreaker stats: both are
   math.Round of a float64 percentage, so both can round up, never both down).  [rate] rounds a/n to float64, multiplies by
   100 in float64 and rounds half away from zero.  Away from a tie (100a/n half an integer) the two float64 roundings, 2^-52
   relative together, are far below the distance 1/(2n) of 100a/n from the nearest half-integer for n < 2^40, so [rate] is the
   exactly rounded percentage.  At a tie a/n is one of the hundred fractions (2k+1)/200; [rate] depends on the fraction only,
   and those are evaluated. *)
From FS Require Import Model.Breaker Model.Delay Proofs.FloatProofs.
Open Scope Z_scope.

Lemma rnd53_rnd_pos a n : rnd53 a n = rnd_pos 53 a n.
Proof. reflexivity. Qed.

(* the float64 percentage before math.Round *)
Definition pct (a n : Z) : fl := rnd_pos 53 (fst (rnd_pos 53 a n) * 100) (snd (rnd_pos 53 a n)).

Lemma rate_pct a n : a <> 0 -> n <> 0 -> rate a n = (2 * fst (pct a n) + snd (pct a n)) / (2 * snd (pct a n)).
Proof.
  intros Ha Hn. unfold rate, pct. rewrite (proj2 (Z.eqb_neq n 0) Hn), (proj2 (Z.eqb_neq a 0) Ha), !rnd53_rnd_pos.
  destruct (rnd_pos 53 a n) as [qn qd]. rewrite rnd53_rnd_pos. cbn [fst snd]. destruct (rnd_pos 53 (qn * 100) qd). reflexivity.
Qed.

Lemma pct_near a n : 0 < a -> 0 < n -> near (2 ^ 52 - 1) (pct a n) (100 * a, 1 * n) /\ wf (pct a n).
Proof.
  (* q, the float64 a / n, is within 2^-53 of a / n (N1), so 100 q of 100 a / n; the float64 product is within 2^-53 of 100 q (N2) *)
  intros Ha Hn. unfold pct. pose proof (rnd_pos_near 53 a n pow53 Ha Hn) as N1.
  pose proof (rnd_pos_positive 53 a n pow53 Ha Hn) as P1. pose proof (rnd_pos_wf 53 a n) as W1. set (q := rnd_pos 53 a n) in *.
  apply (near_scale _ _ _ 100 1) in N1; [|lia..]. cbn [fst snd] in N1. rewrite (Z.mul_comm 100 (fst q)), (Z.mul_1_l (snd q)) in N1.
  pose proof (rnd_pos_near 53 (fst q * 100) (snd q) pow53 ltac:(lia) W1) as N2. split; [|apply rnd_pos_wf].
  apply (near_trans (2 ^ 53) (2 ^ 53) _ _ _ _ N2 N1);
    [apply rnd_pos_wf|exact W1|exact (Z.mul_pos_pos _ _ Z.lt_0_1 Hn)|apply Z.leb_le; reflexivity..].
Qed.

Definition tie (a n : Z) : bool := (200 * a) mod (2 * n) =? n.

Lemma rate_exact a n : 0 <= a <= n -> 0 < n < 2 ^ 40 -> tie a n = false -> rate a n = (200 * a + n) / (2 * n).
Proof.
  intros Ha Hn Htie. destruct (Z.eq_dec a 0) as [->|Ha0].
  { unfold rate. rewrite (proj2 (Z.eqb_neq n 0)), Z.div_small by lia. reflexivity. }
  rewrite rate_pct by lia. destruct (pct_near a n) as [N W]; try lia.
  destruct (pct a n) as [pn pd]. unfold near, wf, tie in *. cbn [fst snd] in *.
  (* k is the exactly rounded percentage: 200 a + n = 2 n k + r.  To show: the float64 percentage pn / pd rounds to k too *)
  set (k := (200 * a + n) / (2 * n)).
  pose proof (Z.div_mod (200 * a + n) (2 * n) ltac:(lia)) as Hk. fold k in Hk.
  pose proof (Z.mod_pos_bound (200 * a + n) (2 * n) ltac:(lia)) as Hr. set (r := (200 * a + n) mod (2 * n)) in *.
  assert (Hr0 : r <> 0).
  { (* r = 0 is the tie 200 a = n + (k - 1) (2 n) *)
    intros E. apply Z.eqb_neq in Htie. apply Htie. replace (200 * a) with (n + (k - 1) * (2 * n)) by lia.
    rewrite Z.mod_add, Z.mod_small; lia. }
  (* so w < 200 a < w + 2 n for w = (2 k - 1) n, with a unit to spare on either side (Hw) *)
  set (w := (2 * k - 1) * n). assert (Hw : w + 1 <= 200 * a <= w + 2 * n - 1) by (subst w; lia).
  change (2 ^ 52 - 1) with 4503599627370495 in N. change (2 ^ 40) with 1099511627776 in Hn.
  pose proof (Z.mul_le_mono_nonneg_r _ _ pd ltac:(lia) (proj1 Hw)) as A1.
  pose proof (Z.mul_le_mono_nonneg_r _ _ pd ltac:(lia) (proj2 Hw)) as A2.
  assert (A3 : (w + 2 * n) * pd <= 4503599627370495 * pd) by (apply Z.mul_le_mono_nonneg_r; lia).
  (* N: 2 pn n is within 200 a pd / (2^52 - 1) of 200 a pd, and that is less than pd, 200 a being below 2^52 - 1 (A2, A3) *)
  assert (D : - pd < 2 * pn * n - 200 * a * pd < pd) by (clear - N W A2 A3; lia).
  assert (B : w * pd <= 2 * pn * n < (w + 2 * n) * pd) by (clear - D A1 A2; lia).
  assert (C : (2 * k - 1) * pd <= 2 * pn < (2 * k + 1) * pd).                           (* B without n *)
  { split; [apply Z.mul_le_mono_pos_r with (p := n)|apply Z.mul_lt_mono_pos_r with (p := n)]; subst w; lia. }
  symmetry. apply (Z.div_unique_pos _ _ _ (2 * pn + pd - 2 * pd * k)); lia.   (* 2 pn + pd = 2 pd k + rest, 0 <= rest < 2 pd: C *)
Qed.

Lemma tie_compl f n : 0 < n -> tie (n - f) n = tie f n.
Proof.
  intros Hn. unfold tie. replace (200 * (n - f)) with (- (200 * f) + 100 * (2 * n)) by ring.
  rewrite Z.mod_add by lia. pose proof (Z.mod_pos_bound (200 * f) (2 * n) ltac:(lia)).
  destruct (Z.eq_dec ((200 * f) mod (2 * n)) 0) as [E|E].
  - rewrite Z.mod_opp_l_z, E by lia. reflexivity.
  - rewrite Z.mod_opp_l_nz by lia. lia.
Qed.

Lemma rate_complement_exact f n : 1 <= n < 2 ^ 40 -> 0 <= f <= n -> tie f n = false ->
  100 <= rate f n + rate (n - f) n.
Proof.
  intros Hn Hf Ht. pose proof (tie_compl f n ltac:(lia)) as Ht'. rewrite Ht in Ht'.
  rewrite !rate_exact by (assumption || lia).
  (* with u / m = (200 f + n) / (2 n) = 100 f / n + 1/2, the second rate is floor (1 - u / m) + 100 *)
  replace (200 * (n - f) + n) with (- (200 * f + n) + 2 * n + 100 * (2 * n)) by ring. rewrite Z.div_add by lia.
  set (u := 200 * f + n). set (m := 2 * n). assert (Hm : 0 < m) by lia. clearbody u m.
  (* floor (u / m) + floor (1 - u / m) >= 0, since - floor (u / m) * m <= - u + m *)
  pose proof (Z.div_mod u m ltac:(lia)). pose proof (Z.mod_pos_bound u m Hm).
  assert (- (u / m) <= (- u + m) / m) by (apply Z.div_le_lower_bound; lia). lia.
Qed.

Lemma rate_frac a n a' n' : 0 < a -> 0 < n -> 0 < a' -> 0 < n' -> a * n' = a' * n -> rate a n = rate a' n'.
Proof.
  intros Ha Hn Ha' Hn' E. rewrite !rate_pct by lia. unfold pct.
  rewrite <- (rnd_pos_scale 53 n' a n), <- (rnd_pos_scale 53 n a' n') by (assumption || exact pow53).
  rewrite (Z.mul_comm n' a), E, (Z.mul_comm a' n), (Z.mul_comm n' n). reflexivity.
Qed.

(* the complement of the tie (2k+1)/200 is (199-2k)/200: fifty sums *)
Lemma rate_complement_ties200_half :
  forallb (fun k => 100 <=? rate (2 * k + 1) 200 + rate (199 - 2 * k) 200) (map Z.of_nat (seq 0 50)) = true.
Proof. vm_compute. reflexivity. Qed.

Lemma rate_complement_ties200 k : 0 <= k < 100 -> 100 <= rate (2 * k + 1) 200 + rate (199 - 2 * k) 200.
Proof.
  assert (T : forall j, 0 <= j < 50 -> 100 <= rate (2 * j + 1) 200 + rate (199 - 2 * j) 200).
  { intros j Hj. pose proof rate_complement_ties200_half as T. rewrite forallb_forall in T.
    assert (Hin : In (Z.of_nat (Z.to_nat j)) (map Z.of_nat (seq 0 50))) by (apply in_map, in_seq; lia).
    apply T in Hin. rewrite Z2Nat.id in Hin by lia. lia. }
  (* for k >= 50 the sum is that of 99 - k with its terms exchanged *)
  intros Hk. destruct (Z_lt_ge_dec k 50); [apply T; lia|]. specialize (T (99 - k) ltac:(lia)).
  replace (2 * (99 - k) + 1) with (199 - 2 * k) in T by lia. replace (199 - 2 * (99 - k)) with (2 * k + 1) in T by lia. lia.
Qed.

Theorem rate_complement_all f n : 1 <= n < 2 ^ 40 -> 0 <= f <= n -> 100 <= rate f n + rate (n - f) n.
Proof.
  intros Hn Hf. destruct (tie f n) eqn:Ht; [|apply rate_complement_exact; assumption].
  (* a tie: 200 f = (2 k + 1) n with 0 <= k < 100, so f / n is (2 k + 1) / 200 and (n - f) / n is (199 - 2 k) / 200 *)
  unfold tie in Ht. pose proof (Z.div_mod (200 * f) (2 * n) ltac:(lia)) as Hk.
  set (k := 200 * f / (2 * n)) in *. replace ((200 * f) mod (2 * n)) with n in Hk by lia.
  assert (K0 : 0 <= k) by (apply Z.div_pos; lia). assert (K1 : k <= 100) by (apply Z.div_le_upper_bound; lia).
  assert (K2 : k <> 100) by (intros E; rewrite E in Hk; lia).
  (* [rate_frac] wants 0 < f and 0 < n - f: from Hk, the product n k being between 0 and 99 n *)
  pose proof (Z.mul_nonneg_nonneg n k ltac:(lia) K0) as K3. pose proof (Z.mul_le_mono_nonneg_l k 99 n ltac:(lia) ltac:(lia)) as K4.
  rewrite (rate_frac f n (2 * k + 1) 200), (rate_frac (n - f) n (199 - 2 * k) 200) by lia.
  apply rate_complement_ties200. lia.
Qed.
