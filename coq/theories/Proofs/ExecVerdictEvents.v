(* C16: in the complete log of any execution through any stack the events of every stack position satisfy the automaton
   of Spec/Verdict.v.  The relations [vsame] and [VJrel] read the log only (Proofs/ExecSteps.v [log_rel]). *)
From FS Require Import Model.Exec Spec.Verdict Proofs.ExecProofs Proofs.ExecSteps Proofs.ExecRetryEvents Proofs.ExecEventsProofs.
From FS Require Import Corr.ExecCorr Corr.ExecCheckers.

Definition vst (pos : nat) (w : world) : option vstate := vstk pos (kps w).

Lemma vstep_neutral pos k s : plain_kind (fst k) = true \/ snd k <> pos -> vstepk pos k s = s.
Proof.
  intros H. unfold vstepk. destruct s as [v|]; [|reflexivity].
  destruct (Nat.eqb (snd k) pos) eqn:E; [|reflexivity]. apply Nat.eqb_eq in E.
  destruct H as [H|H]; [|contradiction]. destruct (fst k); cbn in H; try discriminate; reflexivity.
Qed.

Lemma vst_event w w' q k : kps w' = (k, q) :: kps w -> vst q w' = vstepk q (k, q) (vst q w).
Proof. intros E. unfold vst. rewrite E. reflexivity. Qed.

Definition vsame (pos : nat) (w w' : world) : Prop := vst pos w' = vst pos w.
Definition Nv (pos : nat) (k : evk) (q : nat) : Prop := plain_kind k = true \/ q <> pos.

Lemma v_refl pos w : vsame pos w w. Proof. reflexivity. Qed.
Lemma v_trans pos a b c : vsame pos a b -> vsame pos b c -> vsame pos a c. Proof. unfold vsame. congruence. Qed.
Lemma v_frame pos w w' : w_trace w' = w_trace w -> vsame pos w w'. Proof. unfold vsame, vst, kps. intros ->. reflexivity. Qed.
Lemma v_emit pos w k q o aux : Nv pos k q -> vsame pos w (emit w k q o aux).
Proof. intros H. unfold vsame, vst. rewrite kps_emit. cbn [vstk]. apply vstep_neutral. exact H. Qed.
Lemma v_stamp pos w c : vsame pos w (stamp w c).
Proof. unfold vsame, vst. rewrite kps_stamp. reflexivity. Qed.
Lemma v_plain pos k q : plain_kind k = true -> Nv pos k q. Proof. left. assumption. Qed.
Lemma v_frame2 pos w w' : w_trace w' = w_trace w -> w_retry w' = w_retry w -> vsame pos w w'. Proof. intros H _. apply v_frame, H. Qed.
Lemma v_put pos w q r : True -> vsame pos w (put_rstate w q r). Proof. intros _. apply v_frame. reflexivity. Qed.
Lemma vsame_log pos : log_rel (vsame pos) (Nv pos) (fun _ => True).
Proof.
  split; [apply v_refl|apply v_trans|apply v_frame2|intros; apply v_put; exact I|apply v_emit|apply v_stamp|].
  intros k q H. apply v_plain, plain_verdict, H.
Qed.

Theorem compose_vquiet fuel stack : forall pos start total, (pos < start)%nat -> quiet (vsame pos) (compose fuel start stack total).
Proof.
  intros pos start total Hlt c w. apply (compose_log (vsame_log pos)); [|exact (fun _ _ => I)].
  intros k q (p & Hq & _). right. lia.
Qed.

Definition VJ (w : world) : Prop := forall pos, vst pos w <> None.
Definition VJrel (w w' : world) : Prop := VJ w -> VJ w'.
(* kinds that no automaton state rejects *)
Definition safe_kind (k : evk) : bool := match k with KRetryScheduled | KRetry | KAbort | KRetriesExceeded => false | _ => true end.
Definition Nvj (k : evk) (q : nat) : Prop := safe_kind k = true.

Lemma vstep_safe pos k v : safe_kind (fst k) = true -> vstepk pos k (Some v) <> None.
Proof. intros H. unfold vstepk. destruct (Nat.eqb (snd k) pos); [|discriminate]. destruct (fst k); cbn in H; try discriminate. Qed.

Lemma vj_refl w : VJrel w w. Proof. intros H. exact H. Qed.
Lemma vj_trans a b c : VJrel a b -> VJrel b c -> VJrel a c. Proof. unfold VJrel. auto. Qed.
Lemma vj_frame w w' : w_trace w' = w_trace w -> VJrel w w'. Proof. unfold VJrel, VJ, vst, kps. intros ->. auto. Qed.
Lemma vj_emit w k q o aux : Nvj k q -> VJrel w (emit w k q o aux).
Proof.
  intros H HJ pos. unfold vst. rewrite kps_emit. cbn [vstk]. specialize (HJ pos). unfold vst in HJ.
  destruct (vstk pos (kps w)) as [v|]; [|contradiction]. apply vstep_safe. exact H.
Qed.
Lemma vj_stamp w c : VJrel w (stamp w c).
Proof. intros HJ pos. unfold vst. rewrite kps_stamp. apply HJ. Qed.
Lemma vj_plain k q : plain_kind k = true -> Nvj k q.
Proof. unfold Nvj. destruct k; cbn; intros H; try reflexivity; discriminate. Qed.
Lemma vj_frame2 w w' : w_trace w' = w_trace w -> w_retry w' = w_retry w -> VJrel w w'. Proof. intros H _. apply vj_frame, H. Qed.
Lemma vj_put w q r : True -> VJrel w (put_rstate w q r). Proof. intros _. apply vj_frame. reflexivity. Qed.
Lemma VJ_log : log_rel VJrel Nvj (fun _ => True).
Proof.
  split; [apply vj_refl|apply vj_trans|apply vj_frame2|intros; apply vj_put; exact I|apply vj_emit|apply vj_stamp|].
  intros k q H. apply vj_plain, plain_verdict, H.
Qed.

Lemma VJ_drain w : VJ w -> VJ (drain w).
Proof. exact (drain_log VJ_log w). Qed.

(* The retry policy at q leaves the automata of the other positions where they are ([vsame pos]); left to check is the
   automaton of q. *)
Lemma VJ_own q w w' : (forall pos, pos <> q -> vsame pos w w') -> VJ w -> vst q w' <> None -> VJ w'.
Proof. intros Ho HJ Hq pos. destruct (Nat.eq_dec pos q) as [->|Hne]; [exact Hq|]. rewrite (Ho pos Hne). apply HJ. Qed.

Lemma vstepk_own q k s : vstepk q (k, q) s = vstepk 0 (k, 0%nat) s.
Proof. unfold vstepk. cbn [fst snd]. rewrite Nat.eqb_refl. reflexivity. Qed.

Lemma VJ_event w q k v v' : VJ w -> vst q w = Some v -> vstepk 0 (k, 0%nat) (Some v) = Some v' ->
  forall w1 o aux c, w_trace w1 = w_trace w -> w_retry w1 = w_retry w ->
  VJ (stamp (emit w1 k q o aux) c) /\ vst q (stamp (emit w1 k q o aux) c) = Some v'.
Proof.
  intros HJ Hv Hk w1 o aux c Et Er.
  assert (E : vst q (stamp (emit w1 k q o aux) c) = Some v')
    by (rewrite <- Hk, <- (vstepk_own q), <- Hv; unfold vst; rewrite kps_stamp, kps_emit; unfold kps; rewrite Et; reflexivity).
  split; [|exact E]. apply (VJ_own q w); [|exact HJ|rewrite E; discriminate].
  intros pos Hne. apply (semit_log (vsame_log pos)); auto. right. auto.
Qed.

Lemma after_failed pos q k l : k = KAbort \/ k = KRetriesExceeded ->
  vstk pos ((KPolFailure, q) :: l) <> None -> (pos = q -> vstk pos ((KPolFailure, q) :: l) = Some VFailed) ->
  vstk pos ((k, q) :: (KPolFailure, q) :: l) <> None.
Proof.
  intros Hk F1 F2. change (vstepk pos (k, q) (vstk pos ((KPolFailure, q) :: l)) <> None).
  destruct (Nat.eq_dec pos q) as [->|Hne].
  - rewrite (F2 eq_refl), vstepk_own. destruct Hk as [->| ->]; discriminate.
  - rewrite vstep_neutral; [exact F1|right; cbn [snd]; auto].
Qed.

Lemma VJ_failure cfg q c r w : VJ w ->
  VJ (snd (retry_on_failure cfg q c r w))
  /\ (pr_done (fst (retry_on_failure cfg q c r w)) = false -> vst q (snd (retry_on_failure cfg q c r w)) = Some VFailed).
Proof.
  intros HJ. destruct (retry_failure_events cfg q c r w) as (Ek & _ & Hdone & _).
  set (w0 := pause _ _) in *. set (ex := _ || _) in *. set (ab := is_abortable _ _) in *.
  assert (V0 : vst q w0 = Some VFailed).
  { subst w0. rewrite (pause_log (vsame_log q)). destruct (vst q w) as [v|] eqn:Ev; [|destruct (HJ q Ev)].
    apply (VJ_event w q KPolFailure v VFailed HJ Ev eq_refl); reflexivity. }
  assert (Vq : vst q (snd (retry_on_failure cfg q c r w)) = Some (if ab || ex then VDone else VFailed))
    by (unfold vst; rewrite Ek; destruct ab, ex; cbn [negb andb orb app vstk]; fold (vst q w0); rewrite V0, ?vstepk_own; reflexivity).
  split.
  - apply (VJ_own q w); [|exact HJ|rewrite Vq; discriminate].
    intros pos Hne. apply (retry_on_failure_log (vsame_log pos)); [exact I|right; auto..].
  - intros Hd. rewrite Vq. destruct (ab || ex); [rewrite Hdone in Hd by reflexivity; discriminate|reflexivity].
Qed.

Lemma retry_loop_VJ q cfg inner : quiet VJrel inner ->
  forall fuel c w, VJ w -> VJ (snd (fst (retry_loop fuel cfg q inner c w))).
Proof.
  intros Hj fuel c.
  apply (retry_loop_inv q cfg inner c VJ (fun w => vst q w = Some VFailed) (fun w => vst q w = Some VPending)).
  - exact (fun _ H => H).
  - apply Hj.
  - intros w r HJ _. destruct (vst q w) as [v|] eqn:Ev; [|destruct (HJ q Ev)].
    apply (VJ_event w q KPolSuccess v VNormal HJ Ev eq_refl); reflexivity.
  - intros w r HJ _. apply VJ_failure, HJ.
  - intros w o o' d HJ HF. apply (VJ_event w q KRetryScheduled VFailed VPending HJ HF eq_refl); reflexivity.
  - intros w d HJ HP. split; [exact (wait_log VJ_log w d _ HJ)|rewrite (wait_log (vsame_log q)); exact HP].
  - intros w o aux HJ HP. apply (VJ_event w q KRetry VPending VNormal HJ HP eq_refl); reflexivity.
Qed.

Theorem compose_VJ fuel stack : forall start total, quiet VJrel (compose fuel start stack total).
Proof.
  intros start total. apply compose_ind; [intros c w; apply (fn_layer_log VJ_log)|].
  intros i p inner _ IH. destruct p as [rc| | | | | | |]; [exact (retry_loop_VJ _ rc _ IH fuel)|..];
    intros ? ?; (apply (other_policy_log VJ_log); [discriminate|reflexivity|reflexivity|exact IH]).
Qed.

Theorem verdict_events_consistent fuel stack now ext key b l k c script :
  forall pos, vst pos (drain (snd (execute fuel stack (fresh_world now ext key b l k c script)))) <> None.
Proof.
  apply (run_log VJ_log fuel stack now ext key b l k c script (compose_VJ fuel stack 0 (length stack))).
  intros pos. cbn. discriminate.
Qed.

Lemma vfold_filter_plain pos (f : event -> bool) : (forall e, f e = false -> plain_kind (e_kind e) = true) ->
  forall l s, fold_left (fun s k => vstepk pos k s) (map kp (filter f l)) s = fold_left (fun s k => vstepk pos k s) (map kp l) s.
Proof. intros H. apply fold_kp_filter. intros e s E. apply vstep_neutral. left. exact (H e E). Qed.

Theorem verdict_checker_accepts_model fuel stack now ext key b l k c script lsn mask : forall pos,
  vrun pos (map kp (filter (blsn_keeps mask) (filter (lsn_keeps lsn)
     (rev (w_trace (drain (snd (execute fuel stack (fresh_world now ext key b l k c script))))))))) <> None.
Proof.
  intros pos. unfold vrun.
  rewrite !fold_kp_filter
    by (intros e s H; apply vstep_neutral; left; apply plain_verdict; revert H; (apply blsn_keeps_verdict || apply lsn_keeps_verdict)).
  fold (vrun pos (map kp (rev (w_trace (drain (snd (execute fuel stack (fresh_world now ext key b l k c script)))))))).
  rewrite vrun_vstk, <- map_rev, rev_involutive.
  exact (verdict_events_consistent fuel stack now ext key b l k c script pos).
Qed.
