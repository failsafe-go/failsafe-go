(* The interleaving models and the builders run a step function over a trace with [fold_left]:
   what every step preserves, every run preserves; a list or flag to which every step adds something of the step
   alone ends as its initial value plus what the whole trace adds.  Runs whose guard reads the state, or that sum a
   number, keep their own induction. *)
From Coq Require Import List Bool PeanoNat.

Section Fold.
  Context {S X : Type} (step : S -> X -> S) (P : S -> Prop).

  Lemma fold_left_inv :
    (forall s x, P s -> P (step s x)) -> forall tr s, P s -> P (fold_left step tr s).
  Proof. intros Hstep tr. induction tr as [|x tr IH]; intros s H; [exact H|]. apply IH, Hstep, H. Qed.

  Lemma fold_left_inv_on (ok : X -> bool) :
    (forall s x, ok x = true -> P s -> P (step s x)) ->
    forall tr s, forallb ok tr = true -> P s -> P (fold_left step tr s).
  Proof.
    intros Hstep tr. induction tr as [|x tr IH]; intros s Hok H; [exact H|].
    cbn [forallb] in Hok. apply andb_prop in Hok. apply IH; [|apply Hstep]; tauto.
  Qed.

  Lemma fold_left_appends {A} (f : S -> list A) (g : X -> list A) :
    (forall s x, f (step s x) = f s ++ g x) -> forall tr s, f (fold_left step tr s) = f s ++ flat_map g tr.
  Proof.
    intros Hstep tr. induction tr as [|x tr IH]; intros s; cbn [fold_left flat_map]; [symmetry; apply app_nil_r|].
    rewrite IH, Hstep. symmetry. apply app_assoc.
  Qed.

  Lemma fold_left_ors (f : S -> bool) (g : X -> bool) :
    (forall s x, f (step s x) = f s || g x) -> forall tr s, f (fold_left step tr s) = f s || existsb g tr.
  Proof.
    intros Hstep tr. induction tr as [|x tr IH]; intros s; cbn [fold_left existsb]; [symmetry; apply orb_false_r|].
    rewrite IH, Hstep. symmetry. apply orb_assoc.
  Qed.
End Fold.

Lemma nth_in_range {A} (l : list A) i d x : nth i l d = x -> x <> d -> i < length l.
Proof.
  intros H Hne. destruct (Nat.lt_ge_cases i (length l)) as [Hlt|Hge]; [exact Hlt|].
  rewrite (nth_overflow _ _ Hge) in H. congruence.
Qed.

Lemma find_filter {A} (p q : A -> bool) l : (forall x, p x = true -> q x = true) -> find p (filter q l) = find p l.
Proof.
  intros H. induction l as [|x l IH]; [reflexivity|]. cbn [filter find]. destruct (p x) eqn:Ep.
  - rewrite (H x Ep). cbn [find]. rewrite Ep. reflexivity.
  - destruct (q x); cbn [find]; rewrite ?Ep; exact IH.
Qed.
