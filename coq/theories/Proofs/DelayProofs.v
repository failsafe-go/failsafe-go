(* C13: the delay a retry policy schedules stays inside its envelope *)
From FS Require Import Model.Delay.

Theorem delay_nonneg c last retries elapsed computed d1 d2 d3 :
  0 <= fst (get_delay c last retries elapsed computed d1 d2 d3).
Proof.
  unfold get_delay. destruct (if negb (computed =? -1) then _ else _) as [d l']. cbn [fst].
  unfold adjust_for_max_duration. lia.
Qed.

Theorem delay_within_max_duration c last retries elapsed computed d1 d2 d3 :
  d_max_duration c <> 0 ->
  fst (get_delay c last retries elapsed computed d1 d2 d3) <= Z.max 0 (d_max_duration c - elapsed).
Proof.
  intros H. unfold get_delay. destruct (if negb (computed =? -1) then _ else _) as [d l']. cbn [fst].
  unfold adjust_for_max_duration. destruct (d_max_duration c =? 0) eqn:E; [lia|]. cbn [negb]. lia.
Qed.

Theorem fixed_delay_exact c last retries elapsed d1 d2 d3 :
  d_delay c <> 0 -> 0 <= d_delay c -> d_max_delay c = 0 -> d_jitter c = 0 -> fst (d_jitter_factor c) = 0 -> d_max_duration c = 0 ->
  get_delay c last retries elapsed (-1) d1 d2 d3 = (d_delay c, d_delay c).
Proof.
  intros H0 Hp H1 H2 H3 H4. unfold get_delay, fixed_or_random, adjust_for_jitter, adjust_for_max_duration.
  rewrite H1, H2, H3, H4. change (0 =? 0) with true. change (-1 =? -1) with true. cbn [negb andb].
  destruct (d_delay c =? 0) eqn:E; [lia|]. cbn [negb].
  rewrite !andb_false_r. rewrite E. cbn [negb]. f_equal. lia.
Qed.

Theorem delay_func_value_used c last retries elapsed v d1 d2 d3 :
  v <> -1 -> d_jitter c = 0 -> fst (d_jitter_factor c) = 0 -> d_max_duration c = 0 ->
  get_delay c last retries elapsed v d1 d2 d3 = (Z.max 0 v, last).
Proof.
  intros Hv H2 H3 H4. unfold get_delay, adjust_for_jitter, adjust_for_max_duration. rewrite H2, H3, H4.
  change (0 =? 0) with true. cbn [negb].
  destruct (v =? -1) eqn:E; [lia|]. cbn [negb]. destruct (v =? 0); reflexivity.
Qed.

Theorem backoff_le_max c last retries draw :
  d_delay c <> 0 -> last <> 0 -> 1 <= retries -> d_max_delay c <> 0 ->
  fst (fixed_or_random c last retries draw) <= d_max_delay c
  /\ fst (fixed_or_random c last retries draw) = Z.min (to_int (fmul 24 (of_int 24 last) (d_factor c))) (d_max_delay c).
Proof.
  intros H0 H1 H2 H3. unfold fixed_or_random.
  destruct (d_delay c =? 0) eqn:E0; [lia|]. destruct (last =? 0) eqn:E1; [lia|].
  destruct (d_max_delay c =? 0) eqn:E3; [lia|]. destruct (1 <=? retries) eqn:E2; [|lia]. cbn [negb andb fst]. lia.
Qed.

Theorem jitter_does_not_accumulate c last retries elapsed computed d1 d2 d3 e1 e2 e3 :
  d_delay c <> 0 ->
  snd (get_delay c last retries elapsed computed d1 d2 d3) = snd (get_delay c last retries elapsed computed e1 e2 e3).
Proof.
  intros H. unfold get_delay. destruct (negb (computed =? -1)); [reflexivity|].
  unfold fixed_or_random. destruct (d_delay c =? 0) eqn:E; [lia|]. reflexivity.
Qed.

Theorem backoff_sequence c k :
  d_delay c <> 0 -> d_max_delay c <> 0 -> backoff_seq c k <> 0 ->
  backoff_seq c (S k) = Z.min (to_int (fmul 24 (of_int 24 (backoff_seq c k)) (d_factor c))) (d_max_delay c).
Proof.
  intros H0 H1 H2. cbn [backoff_seq]. apply (backoff_le_max c (backoff_seq c k) 1 (0, 1)); try assumption; lia.
Qed.

(* one evaluation, a test of the model and not a theorem: doubling values that fit 24 significant bits is exact *)
Example backoff_doubling_exact_examples :
  map (backoff_seq {| d_delay := 1000000; d_max_delay := 30000000; d_factor := (2, 1); d_min := 0; d_max := 0;
                      d_jitter := 0; d_jitter_factor := (0, 1); d_max_duration := 0 |}) [0; 1; 2; 3; 4; 5; 6]%nat
  = [1000000; 2000000; 4000000; 8000000; 16000000; 30000000; 30000000].
Proof. vm_compute. reflexivity. Qed.
