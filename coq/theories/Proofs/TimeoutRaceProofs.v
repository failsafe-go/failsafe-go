(* C07: every interleaving of the timeout protocol ends consistently.
   The state record is finite; an invariant [inv] picks out 29 of its 3240 states, and everything rests on one case
   analysis over those. *)
From FS Require Import Model.TimeoutRace Proofs.Trace.

Definition inv (s : st) : bool :=
  match s_cell s, s_t s, s_m s, s_listener s, s_cancelled s with
  | CNone, (TIdle), (MRunning | MReturned), Zero, false => true
  | CTimeout, TWon, (MRunning | MReturned | MStopped | MDone), Zero, false => true
  | CTimeout, TListened, (MRunning | MReturned | MStopped | MDone), One, false => true
  | CTimeout, TDoneWon, (MRunning | MReturned | MStopped | MDone), One, true => true
  | CInner, (TIdle | TLost), (MSwapped | MStopped | MDone), Zero, false => true
  | CInner, TStopped, (MStopped | MDone), Zero, false => true
  | _, _, _, _, _ => false
  end
  && (match s_m s with MDone => match s_ret s, s_cell s with CInner, CInner | CTimeout, CTimeout => true | _, _ => false end
                    | _ => match s_ret s with CNone => true | _ => false end end)
  && (* a blocking function has returned only after the cancellation *)
     (if s_blocking s then match s_m s with MRunning => true | _ => s_cancelled s end else true).

Lemma inv_init b : inv (init b) = true.
Proof. destruct b; reflexivity. Qed.

Lemma inv_step_and_outcome s : inv s = true ->
  (forall x, inv (do_step s x) = true)
  /\ (quiescent s = true -> exclusive s = true)
  /\ (s_blocking s = true -> s_m s = MDone -> s_ret s = CTimeout).
Proof.
  destruct s as [c t m l k b r].
  (* one field at a time, so that the branches where [inv] is false go as they appear; splitting all seven first builds
     3240 goals and costs twenty times as much *)
  destruct c, t; cbn; try discriminate; destruct m; cbn; try discriminate; destruct l, k; cbn; try discriminate;
  destruct r; cbn; try discriminate; destruct b; cbn; try discriminate;
  intros _; (split; [intros []; reflexivity|split; intros; reflexivity || discriminate]).
Qed.

Lemma blocking_step s x : s_blocking (do_step s x) = s_blocking s.
Proof.
  destruct x; unfold do_step; destruct (s_t s), (s_m s); try reflexivity;
    try (destruct (s_cell s); reflexivity); destruct (negb (s_blocking s) || s_cancelled s); reflexivity.
Qed.

Lemma inv_step s x : inv s = true -> inv (do_step s x) = true.
Proof. intros H. apply (inv_step_and_outcome s H). Qed.

Lemma inv_quiescent_exclusive s : inv s = true -> quiescent s = true -> exclusive s = true.
Proof. intros H. apply (inv_step_and_outcome s H). Qed.

Lemma inv_blocking_timeout s : inv s = true -> s_blocking s = true -> s_m s = MDone -> s_ret s = CTimeout.
Proof. intros H. apply (inv_step_and_outcome s H). Qed.

Lemma inv_run tr s : inv s = true -> inv (run s tr) = true.
Proof. apply (fold_left_inv do_step (fun s => inv s = true)). intros s' x. apply inv_step. Qed.

Lemma blocking_run tr s : s_blocking (run s tr) = s_blocking s.
Proof. apply (fold_left_inv do_step (fun s' => s_blocking s' = s_blocking s)); [|reflexivity]. intros s' x H. rewrite blocking_step. exact H. Qed.

Theorem timeout_exclusive blocking tr :
  quiescent (run (init blocking) tr) = true -> exclusive (run (init blocking) tr) = true.
Proof. apply inv_quiescent_exclusive, inv_run, inv_init. Qed.

Theorem blocks_until_cancel_always_exceeds tr :
  s_m (run (init true) tr) = MDone -> s_ret (run (init true) tr) = CTimeout.
Proof. apply inv_blocking_timeout; [apply inv_run, inv_init|rewrite blocking_run; reflexivity]. Qed.

(* non-vacuity: both outcomes are reachable *)
Example inner_wins : exclusive (run (init false) [MReturn; MCas; MStop; MPost]) = true /\ quiescent (run (init false) [MReturn; MCas; MStop; MPost]) = true.
Proof. split; reflexivity. Qed.
Example timer_wins : let s := run (init true) [TFire; TListener; TCancel; MReturn; MCas; MPost] in
  s_ret s = CTimeout /\ quiescent s = true /\ exclusive s = true.
Proof. repeat split; reflexivity. Qed.
