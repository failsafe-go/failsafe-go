(* C17: the StartTime and AttemptStartTime every observer is shown.  The invariant [Ts] is kept by every step of
   Proofs/ExecSteps.v; it reads the copy whose AttemptStartTime an event is stamped with, hence the guarded steps
   ([G := True]). *)
From FS Require Import Model.Exec Proofs.ExecProofs Proofs.ExecSteps.

Definition ev_ok (t0 : Z) (e : event) : Prop :=
  e_start e = t0 /\ t0 <= e_time e /\ (e_astart e = -1 \/ (t0 <= e_astart e <= e_time e)).
Definition cp_ok (w : world) (cp : copyst) : Prop := w_start w <= cp_start cp <= w_now w.
Definition okc (c : nat) (w : world) : Prop := (c < length (w_copies w))%nat.

Section T0.
Variable t0 : Z.   (* the instant the execution began *)

Record Ts (w : world) : Prop := {
  ts_t0 : w_start w = t0;
  ts_now : w_start w <= w_now w;
  ts_ev : Forall (ev_ok (w_start w)) (w_trace w);
  ts_cp : Forall (cp_ok w) (w_copies w);
  ts_bg : Forall (fun b => okc (bg_copy b) w) (w_bg w) }.

Lemma Ts_frame w w' :
  w_start w' = w_start w -> w_trace w' = w_trace w -> w_copies w' = w_copies w -> w_bg w' = w_bg w -> w_now w <= w_now w' ->
  Ts w -> Ts w'.
Proof.
  intros Es Et Ec Eb En [H0' Hn He Hc Hb]. constructor; rewrite ?Es, ?Et, ?Ec, ?Eb; try assumption; try lia.
  - eapply Forall_impl; [|exact Hc]. intros cp [A B]. unfold cp_ok. rewrite Es. lia.
  - eapply Forall_impl; [|exact Hb]. intros b Hb'. unfold okc in *. rewrite Ec. exact Hb'.
Qed.

Lemma Ts_emit w k pos o aux : Ts w -> Ts (emit w k pos o aux).
Proof.
  intros [H0' Hn He Hc Hb]. constructor; unfold emit; cbn [w_start w_now w_trace w_copies w_bg set_trace]; try assumption.
  constructor; [|exact He]. unfold ev_ok. cbn [e_start e_time e_astart]. repeat split; lia.
Qed.

Lemma Ts_stamp_emit w c k pos o aux : okc c w -> Ts w -> Ts (stamp (emit w k pos o aux) c).
Proof.
  intros Hc0 [H0' Hn He Hc Hb]. unfold stamp, emit. cbn [w_trace set_trace].
  constructor; cbn [w_start w_now w_trace w_copies w_bg set_trace]; try assumption.
  constructor; [|exact He]. unfold ev_ok. cbn [e_start e_time e_astart]. repeat split; try lia.
  right. unfold get_copy. cbn [w_copies set_trace].
  rewrite Forall_forall in Hc. specialize (Hc (nth c (w_copies w) dflt_copy) (nth_In _ _ Hc0)). unfold cp_ok in Hc. lia.
Qed.

Lemma okc_frame c w w' : w_copies w' = w_copies w -> okc c w -> okc c w'.
Proof. unfold okc. intros ->. auto. Qed.

Lemma Ts_upd_copies w c f :
  (forall cp, cp_ok w cp -> cp_ok w (f cp)) -> Ts w -> Ts (set_copies w (upd c f (w_copies w))).
Proof.
  intros Hf [H0' Hn He Hc Hb]. constructor; cbn [w_start w_now w_trace w_copies w_bg set_copies]; try assumption.
  - apply Forall_upd; [|exact Hf]. exact Hc.
  - eapply Forall_impl; [|exact Hb]. intros b Hb'. unfold okc in *. cbn [w_copies set_copies]. rewrite upd_length. exact Hb'.
Qed.

Lemma Ts_append_copy w c chain last :
  okc c w -> Ts w -> Ts (set_copies w (w_copies w ++ [ {| cp_chain := chain; cp_last := last; cp_start := cp_start (get_copy w c) |} ])).
Proof.
  intros Hc0 [H0' Hn He Hc Hb]. constructor; cbn [w_start w_now w_trace w_copies w_bg set_copies]; try assumption.
  - apply Forall_app. split; [exact Hc|]. constructor; [|constructor].
    unfold cp_ok. cbn [cp_start w_start w_now set_copies].
    rewrite Forall_forall in Hc. specialize (Hc (nth c (w_copies w) dflt_copy) (nth_In _ _ Hc0)). exact Hc.
  - eapply Forall_impl; [|exact Hb]. intros b Hb'. unfold okc in *. cbn [w_copies set_copies]. rewrite app_length. lia.
Qed.

Lemma Ts_set_hedge w h bg hs : Forall (fun b => okc (bg_copy b) w) bg -> Ts w -> Ts (set_hedge w h bg hs).
Proof. intros Hbg [H0' Hn He Hc Hb]. constructor; cbn [w_start w_now w_trace w_copies w_bg set_hedge]; assumption. Qed.

Lemma copies_len_advance_aux w w' : w_copies w' = w_copies w -> length (w_copies w') = length (w_copies w).
Proof. intros ->. reflexivity. Qed.

Lemma step_Ts A B w w' : step True A B no_call w w' -> Ts w -> Ts w'.
Proof.
  assert (Hf : forall a b, w_start b = w_start a -> w_trace b = w_trace a -> w_copies b = w_copies a -> w_bg b = w_bg a ->
                           w_now b = w_now a -> Ts a -> Ts b) by (intros a b ? ? ? ? E; apply Ts_frame; try assumption; rewrite E; lia).
  destruct 1; intros Hw; try (apply (Hf w); try reflexivity; exact Hw).
  - (* S_now *) apply (Ts_frame w); try reflexivity; [cbn; lia|exact Hw].
  - (* S_last *) apply Ts_upd_copies; [|exact Hw]. intros cp Hcp. exact Hcp.
  - (* S_push *) apply (Ts_append_copy (set_scopes w _ q e) c); [exact (H I)|apply (Hf w); try reflexivity; exact Hw].
  - (* S_emit *) apply Ts_emit, Hw.
  - (* S_semit *) apply Ts_stamp_emit; [exact (H I)|exact Hw].
  - (* S_fn_end *) apply Ts_stamp_emit; [exact (H I)|apply (Hf w); try reflexivity; exact Hw].
  - (* S_retry: the attempt start moves to now *)
    apply Ts_stamp_emit; [unfold okc; cbn [w_copies restart set_cell set_copies]; rewrite upd_length; exact (H I)|].
    set (wc := set_counters w (w_attempts w + 1) (w_retries w + 1) (w_executions w)).
    assert (Hc : Ts wc) by (apply (Hf w); try reflexivity; exact Hw).
    apply (Hf (set_copies wc (upd c (fun cp => {| cp_chain := cp_chain cp; cp_last := cp_last cp; cp_start := w_now wc |}) (w_copies wc))));
      try reflexivity.
    apply Ts_upd_copies; [|exact Hc]. intros cp Hcp. unfold cp_ok in *. cbn [cp_start]. pose proof (ts_now _ Hc). lia.
  - (* S_hedge *) apply Ts_stamp_emit; [exact (H I)|]. apply Ts_set_hedge; [exact (ts_bg _ Hw)|apply (Hf w); try reflexivity; exact Hw].
  - (* S_bg *) apply Ts_set_hedge; [|exact Hw]. apply Forall_forall. intros b' Hb'. destruct (H b' Hb') as (b & Hin & E & _).
    pose proof (ts_bg _ Hw) as Hb. rewrite Forall_forall in Hb. unfold okc in *. rewrite E. exact (Hb b Hin).
  - (* S_bg_new *) apply Ts_set_hedge; [|exact Hw]. constructor; [exact (H I)|exact (ts_bg _ Hw)].
  - (* S_call *) destruct H.
Qed.

Definition Step (w w' : world) : Prop := Ts w' /\ (length (w_copies w) <= length (w_copies w'))%nat.
Definition pres (l : layer) : Prop := forall c w, okc c w -> Ts w -> Step w (snd (l c w)).

Lemma apply_policy_pres fuel q total p inner : pres inner -> pres (apply_policy fuel q total p inner).
Proof. exact (apply_policy_keeps Ts step_Ts ts_bg fuel q total p inner). Qed.

Lemma fn_layer_pres pos : pres (fn_layer pos).
Proof. exact (layer_steps_keeps Ts step_Ts ts_bg _ _ _ (fn_layer_steps (A := no_event) (B := no_write) Ts (step_Ts _ _) pos)). Qed.

Lemma breaker_layer_pres pos inst inner : pres inner -> pres (breaker_layer pos inst inner).
Proof. exact (apply_policy_pres 0 pos 0 (PBreaker inst) inner). Qed.
Lemma limiter_layer_pres pos inst mw inner : pres inner -> pres (limiter_layer pos inst mw inner).
Proof. exact (apply_policy_pres 0 pos 0 (PLimiter inst mw) inner). Qed.
Lemma bulkhead_layer_pres pos inst mw inner : pres inner -> pres (bulkhead_layer pos inst mw inner).
Proof. exact (apply_policy_pres 0 pos 0 (PBulkhead inst mw) inner). Qed.
Lemma timeout_layer_pres pos limit inner : pres inner -> pres (timeout_layer pos limit inner).
Proof. exact (apply_policy_pres 0 pos 0 (PTimeout limit) inner). Qed.
Lemma fallback_layer_pres pos cfg inner : pres inner -> pres (fallback_layer pos cfg inner).
Proof. exact (apply_policy_pres 0 pos 0 (PFallback cfg) inner). Qed.
Lemma cache_layer_pres pos inst cfg inner : pres inner -> pres (cache_layer pos inst cfg inner).
Proof. exact (apply_policy_pres 0 pos 0 (PCache inst cfg) inner). Qed.

Theorem compose_pres fuel stack : forall pos total, pres (compose fuel pos stack total).
Proof. intros pos total. exact (compose_keeps Ts step_Ts ts_bg fuel stack pos total). Qed.

(* each operation of Model/Exec.v is a step or steps of Proofs/ExecSteps.v; [steps_Step] adds that no copy is lost *)
Lemma Ts_set_now w t : Ts w -> Ts (set_now w (Z.max (w_now w) t)).
Proof. exact (step_Ts no_event no_write _ _ (S_now w t)). Qed.
Lemma Ts_settle w t : Ts w -> Ts (settle w t).
Proof. destruct t; [apply Ts_set_now|exact (fun H => H)]. Qed.
Lemma Ts_set_oof w : Ts w -> Ts (set_oof w).
Proof. exact (step_Ts no_event no_write _ _ (S_oof w)). Qed.
Lemma Ts_set_scopes w s q e : Ts w -> Ts (set_scopes w s q e).
Proof. apply Ts_frame; try reflexivity; cbn; lia. Qed.
Lemma Ts_set_cell w c : Ts w -> Ts (set_cell w c).
Proof. exact (step_Ts no_event no_write _ _ (S_cell w c)). Qed.
Lemma Ts_set_insts w b l k c : Ts w -> Ts (set_insts w b l k c).
Proof. exact (step_Ts no_event no_write _ _ (S_insts w b l k c)). Qed.
Lemma Ts_set_retry w r : Ts w -> Ts (set_retry w r).
Proof. apply Ts_frame; try reflexivity; cbn; lia. Qed.
Lemma Ts_set_script w s : Ts w -> Ts (set_script w s).
Proof. exact (step_Ts no_event no_write _ _ (S_script w s)). Qed.
Lemma Ts_set_counters w a r x : Ts w -> Ts (set_counters w a r x).
Proof. apply Ts_frame; try reflexivity; cbn; lia. Qed.

Lemma Ts_mark_done w s e : Ts w -> Ts (mark_done w s e).
Proof. exact (steps_inv Ts (step_Ts no_event no_write) (st_mark_done w w s e (steps_refl w))). Qed.
Lemma Ts_set_copy_last w c o : Ts w -> Ts (set_copy_last w c o).
Proof. exact (step_Ts no_event no_write _ _ (S_last w c o)). Qed.
Lemma Ts_set_hedge_same w h hs : Ts w -> Ts (set_hedge w h (w_bg w) hs).
Proof. intros H. exact (Ts_set_hedge w h _ hs (ts_bg _ H) H). Qed.
Lemma Ts_fire_timeout w s : Ts w -> Ts (fire_timeout w s).
Proof. exact (steps_inv Ts (step_Ts no_event no_write) (st_fire_timeout w w s (steps_refl w))). Qed.
Lemma Ts_fire_ext w e : Ts w -> Ts (fire_ext w e).
Proof. exact (steps_inv Ts (step_Ts no_event no_write) (st_fire_ext w w e (steps_refl w))). Qed.
Lemma Ts_finish_bg w b : In b (w_bg w) -> Ts w -> Ts (finish_bg w b).
Proof. intros Hin H. exact (steps_inv Ts (step_Ts no_event no_write) (st_finish_bg w w b (fun _ => ts_bg _ H) Hin (steps_refl w)) H). Qed.
Lemma Ts_refresh_bg w : Ts w -> Ts (refresh_bg w).
Proof. exact (steps_inv Ts (step_Ts no_event no_write) (st_refresh_bg w w (steps_refl w))). Qed.

Lemma okc_le c w w' : (length (w_copies w) <= length (w_copies w'))%nat -> okc c w -> okc c w'.
Proof. unfold okc. lia. Qed.
Lemma Step_refl w : Ts w -> Step w w.
Proof. split; [assumption|lia]. Qed.
Lemma Step_trans a b c : Step a b -> Step b c -> Step a c.
Proof. intros [_ L1] [T L2]. split; [exact T|lia]. Qed.
Lemma Step_same w w' : Ts w' -> w_copies w' = w_copies w -> Step w w'.
Proof. intros T E. split; [exact T|rewrite E; lia]. Qed.
Lemma stamp_copies w c : w_copies (stamp w c) = w_copies w.
Proof. apply (stamp_same w_copies). reflexivity. Qed.
Lemma refresh_bg_copies w : w_copies (refresh_bg w) = w_copies w.
Proof. apply (refresh_bg_same w_copies); reflexivity. Qed.

Lemma steps_Step A B w w' : steps True A B no_call w w' -> Ts w -> Step w w'.
Proof. intros Hs Hw. split; [exact (steps_inv Ts (step_Ts A B) Hs Hw)|exact (steps_copies I Hs)]. Qed.
Lemma Step_semit w c k pos o aux : okc c w -> Ts w -> Step w (stamp (emit w k pos o aux) c).
Proof. intros Hc Hw. apply Step_same; [exact (Ts_stamp_emit w c k pos o aux Hc Hw)|rewrite stamp_copies; reflexivity]. Qed.
Lemma Step_ev w c k pos r : okc c w -> Ts w -> Step w (ev_with_result w c k pos r).
Proof. apply Step_semit. Qed.
Lemma Ts_entry c w : okc c w -> Ts w -> entry True Ts c w.
Proof. intros Hc Hw. exact (conj (fun _ => conj Hc (ts_bg _ Hw)) Hw). Qed.
Lemma Step_wait w d intr : Ts w -> Step w (snd (wait w d intr)).
Proof. intros Hw. exact (steps_Step no_event no_write _ _ (advance_steps _ w _ intr false (fun _ => ts_bg _ Hw)) Hw). Qed.
Lemma Step_pause w d : Ts w -> Step w (pause w d).
Proof. intros Hw. unfold pause. destruct (0 <? d); [apply Step_wait, Hw|apply Step_refl, Hw]. Qed.
Lemma Step_emit_bevents pos evs : forall w, Ts w -> Step w (emit_bevents w pos evs).
Proof. intros w. exact (steps_Step no_event no_write _ _ (st_emit_bevents w pos evs w (steps_refl w))). Qed.
Lemma Step_put_rstate w pos r : Ts w -> Step w (put_rstate w pos r).
Proof. exact (steps_Step no_event (fun _ => True) _ _ (steps_one (S_put w pos r I))). Qed.

Lemma retry_on_failure_Step cfg pos c r w : okc c w -> Ts w -> Step w (snd (retry_on_failure cfg pos c r w)).
Proof.
  intros Hc Hw. refine (steps_Step (fun _ _ => True) (fun _ => True) _ _ _ Hw).
  exact (st_retry_on_failure Ts (step_Ts _ _) c w w pos cfg r I I I I (Ts_entry c w Hc Hw) (steps_refl w)).
Qed.
Lemma retry_loop_Step cfg pos inner : pres inner -> forall fuel c w, okc c w -> Ts w -> Step w (snd (fst (retry_loop fuel cfg pos inner c w))).
Proof. intros H fuel. exact (apply_policy_pres fuel pos 0 (PRetry cfg) inner H). Qed.

Lemma Ts_cancel_others started : forall w i winner, Ts w -> Ts (cancel_others w started i winner) /\ length (w_copies (cancel_others w started i winner)) = length (w_copies w).
Proof.
  intros w i winner Hw. split; [exact (steps_inv Ts (step_Ts no_event no_write) (st_cancel_others w started w i winner (steps_refl w)) Hw)|].
  rewrite (cancel_others_same w_copies); reflexivity.
Qed.
Lemma Ts_cancel_copy w cs : Ts w -> Ts (cancel_copy w cs) /\ length (w_copies (cancel_copy w cs)) = length (w_copies w).
Proof. intros Hw. pose proof (Ts_cancel_others [cs] w 0%nat 1%nat Hw) as H. exact H. Qed.
Lemma hedge_loop_Step cfg pos total : forall fuel c k started w, okc c w -> Ts w -> Step w (snd (fst (hedge_loop fuel cfg pos total c k started w))).
Proof.
  intros fuel c k st w Hc Hw. refine (steps_Step no_event no_write _ _ _ Hw).
  exact (hloop_steps Ts (step_Ts _ _) cfg pos total c k st w _ _ _ (ExecHedgeProofs.hedge_loop_hloop cfg pos total c fuel k st w) (Ts_entry c w Hc Hw)).
Qed.
Lemma fresh_world_Ts now ext key b l k c script : t0 = now -> Ts (fresh_world now ext key b l k c script) /\ okc 0 (fresh_world now ext key b l k c script).
Proof.
  intros ->. pose proof (fresh_world_steps True no_event no_write no_call now ext key b l k c script) as Hs.
  assert (H0 : Ts (fresh_world0 now ext key b l k c script)) by (constructor; cbn; try reflexivity; try lia; repeat constructor; cbn; lia).
  destruct (steps_Step _ _ _ _ Hs H0) as [T L]. split; [exact T|exact L].
Qed.
Lemma hedge_start_Step pos total c k w : okc c w -> Ts w -> Ts (hedge_start pos total c k w) /\ length (w_copies (hedge_start pos total c k w)) = S (length (w_copies w)).
Proof.
  intros Hc Hw. split; [exact (steps_inv Ts (step_Ts no_event no_write) (hedge_start_steps Ts (step_Ts _ _) pos total c k w (Ts_entry c w Hc Hw)) Hw)|].
  rewrite (ExecHedgeProofs.hedge_start_same w_copies) by reflexivity. cbn. rewrite app_length. cbn. lia.
Qed.
Lemma Forall_filter {A} (P : A -> Prop) f (l : list A) : Forall P l -> Forall P (filter f l).
Proof. exact (incl_Forall (incl_filter f l)). Qed.
Lemma hedge_layer_pres pos total cfg : pres (hedge_layer pos total cfg).
Proof. exact (layer_steps_keeps Ts step_Ts ts_bg _ _ _ (hedge_layer_steps (A := no_event) (B := no_write) Ts (step_Ts _ _) pos total cfg)). Qed.

End T0.

Theorem start_times_exact fuel stack now ext key b l k c script :
  Forall (ev_ok now) (w_trace (drain (snd (execute fuel stack (fresh_world now ext key b l k c script))))).
Proof.
  assert (H : Ts now (drain (snd (execute fuel stack (fresh_world now ext key b l k c script))))).
  { eapply (steps_inv (Ts now)); [apply step_Ts|apply (run_steps True)|].
    (* [Ts] of the initial world: one copy, started now; an empty log; no background attempts *)
    constructor; cbn; try reflexivity; try lia; repeat constructor; cbn; lia. }
  pose proof (ts_ev _ _ H) as He. rewrite (ts_t0 _ _ H) in He. exact He.
Qed.

Lemma ev_ok_bool now e : ev_ok now e ->
  ((e_start e =? now) && ((e_astart e =? -1) || ((now <=? e_astart e) && (e_astart e <=? e_time e)))) = true.
Proof. intros (A & B & [C|C]); lia. Qed.

Theorem start_times_checker_accepts_model fuel stack now ext key b l k c script :
  forallb (fun e => (e_start e =? now) && ((e_astart e =? -1) || ((now <=? e_astart e) && (e_astart e <=? e_time e))))
          (rev (w_trace (drain (snd (execute fuel stack (fresh_world now ext key b l k c script)))))) = true.
Proof.
  apply forallb_forall. intros e He. apply in_rev in He.
  pose proof (start_times_exact fuel stack now ext key b l k c script) as H. rewrite Forall_forall in H.
  apply ev_ok_bool, H, He.
Qed.
