(* C01: the Done and Success flags of what an inner layer returns are never read by the layer around it (each layer reads
   them only on results it has just stamped itself), so garbling them at every layer boundary of any stack changes
   neither the world nor the returned result, error and verdict. *)
From FS Require Import Model.Exec Proofs.ExecProofs.

Definition same_core (r r' : presult) : Prop :=
  pr_res r = pr_res r' /\ pr_err r = pr_err r' /\ pr_all r = pr_all r'.

Definition layer_eqv (l l' : layer) : Prop :=
  forall c w, same_core (fst (l c w)) (fst (l' c w)) /\ snd (l c w) = snd (l' c w).

Lemma same_core_trans a b c : same_core a b -> same_core b c -> same_core a c.
Proof. intros (?&?&?) (?&?&?). repeat split; congruence. Qed.

Lemma layer_eqv_trans a b c : layer_eqv a b -> layer_eqv b c -> layer_eqv a c.
Proof. intros H1 H2 x w. destruct (H1 x w) as [A B], (H2 x w) as [C D]. split; [exact (same_core_trans _ _ _ A C)|rewrite B; exact D]. Qed.

Definition garbled (g : presult -> presult) (l : layer) : layer := fun c w => let '(r, w') := l c w in (g r, w').

Lemma garbled_eqv g l : (forall r, same_core (g r) r) -> layer_eqv (garbled g l) l.
Proof. intros Hg c w. unfold garbled. destruct (l c w) as [r w']. cbn [fst snd]. split; [apply Hg|reflexivity]. Qed.

(* What equivalent layers return at the same call: the same world, and results that differ in Done / Success at most.
   Destructing an instance puts both calls into this form, after which the two sides of a layer take the same decisions. *)
Inductive pair_eqv : presult * world -> presult * world -> Prop :=
  pair_eqv_flags res er al dn sc dn' sc' w : pair_eqv (mk_presult res er dn sc al, w) (mk_presult res er dn' sc' al, w).

Lemma pair_eqv_refl x : pair_eqv x x.
Proof. destruct x as [[] w]. constructor. Qed.

Lemma layer_eqv_pairs l l' : layer_eqv l l' -> forall c w, pair_eqv (l c w) (l' c w).
Proof.
  intros H c w. destruct (H c w) as [(E1 & E2 & E3) Ew]. destruct (l c w) as [[] w1], (l' c w) as [[] w1']. cbn in *. subst. constructor.
Qed.

Lemma pairs_layer_eqv l l' : (forall c w, pair_eqv (l c w) (l' c w)) -> layer_eqv l l'.
Proof. intros H c w. destruct (H c w). repeat split. Qed.

Lemma retry_on_failure_out cfg pos c r r' w : pr_out r = pr_out r' -> retry_on_failure cfg pos c r w = retry_on_failure cfg pos c r' w.
Proof.
  intros E. destruct r as [res er dn sc al], r' as [res' er' dn' sc' al']. injection E as <- <-.
  (* the projections have to be reduced first: [reflexivity] on the goal as it stands does not come back *)
  unfold retry_on_failure, with_done, pr_out, ev_with_result. cbn [pr_res pr_err pr_all andb]. reflexivity.
Qed.

Section Inner.
Variables inner inner' : layer.
Hypothesis H : forall c w, pair_eqv (inner c w) (inner' c w).

Lemma retry_loop_eqv cfg pos fuel : forall c w, pair_eqv (fst (retry_loop fuel cfg pos inner c w)) (fst (retry_loop fuel cfg pos inner' c w)).
Proof.
  induction fuel as [|fuel IH]; intros c w; cbn [retry_loop]; [apply pair_eqv_refl|].
  destruct (H c w) as [res er al dn sc dn' sc' w1].   (* the two inner results differ in dn, sc / dn', sc' at most *)
  destruct (is_canceled w1 c); [apply pair_eqv_refl|].
  destruct (rs_exceeded (get_rstate w1 pos)); [apply pair_eqv_flags|].
  unfold pr_out. cbn [pr_res pr_err]. destruct (is_failure (r_fpol cfg) (res, er)); [|apply pair_eqv_flags].   (* success: flags set here *)
  (* failure: OnFailure reads result and error only; from here the two sides differ in the next round only *)
  rewrite (retry_on_failure_out cfg pos c (with_failure (mk_presult res er dn sc al)) (with_failure (mk_presult res er dn' sc' al)) w1 eq_refl).
  destruct (retry_on_failure cfg pos c _ w1) as [r2 w2].
  destruct (pr_done r2); [apply pair_eqv_refl|]. destruct (is_canceled w2 c); [apply pair_eqv_refl|].
  match goal with |- context [wait ?ww ?d ?i] => destruct (wait ww d i) as [ii w5] end.
  destruct (is_canceled w5 c); [apply pair_eqv_refl|].
  match goal with |- context [retry_loop fuel cfg pos inner c ?w9] => specialize (IH c w9);
    destruct (retry_loop fuel cfg pos inner c w9) as [[rr ww] n]; destruct (retry_loop fuel cfg pos inner' c w9) as [[rr' ww'] n'] end.
  exact IH.
Qed.

Lemma breaker_layer_eqv pos inst c w : pair_eqv (breaker_layer pos inst inner c w) (breaker_layer pos inst inner' c w).
Proof.
  unfold breaker_layer.
  destruct (nth inst (w_breakers w) _) as [cfg s]. destruct (try_acquire conc_impl cfg s (w_now w)) as [[ok s1] evs].
  destruct ok; cbn [negb]; [|apply pair_eqv_refl].
  match goal with |- context [inner c ?w1] => destruct (H c w1) as [res er al dn sc dn' sc' w2] end.
  destruct (nth inst (w_breakers w2) _) as [cfg2 s2]. unfold pr_out. cbn [pr_res pr_err].
  destruct (is_failure (b_fpol cfg) (res, er)); [destruct (record conc_impl cfg s2 _ false _)|destruct (record conc_impl cfg s2 _ true _)];
    apply pair_eqv_flags.
Qed.

Lemma limiter_layer_eqv pos inst mw c w : pair_eqv (limiter_layer pos inst mw inner c w) (limiter_layer pos inst mw inner' c w).
Proof.
  unfold limiter_layer, limiter_layer_gen.
  destruct (nth inst (w_limiters w) _) as [[cfg base] s]. destruct (lim_acquire cfg s (w_now w - base) 1 mw) as [wt s'].
  destruct (wt =? -1); [apply pair_eqv_refl|].
  match goal with |- context [wait ?ww ?d ?i] => destruct (wait ww d i) as [[|] w2] end; [apply pair_eqv_refl|apply H].
Qed.

Lemma bulkhead_layer_eqv pos inst mw c w : pair_eqv (bulkhead_layer pos inst mw inner c w) (bulkhead_layer pos inst mw inner' c w).
Proof.
  unfold bulkhead_layer.
  destruct (nth inst (w_bulkheads w) (0, 0)) as [cap held].
  destruct (copy_err w c); [apply pair_eqv_refl|].
  destruct (held <? cap).
  - match goal with |- context [inner c ?w1] => destruct (H c w1) as [res er al dn sc dn' sc' w2] end.
    destruct (nth inst (w_bulkheads w2) (0, 0)). apply pair_eqv_flags.
  - destruct (mw =? 0); [apply pair_eqv_refl|]. destruct (wait w mw (Some c)) as [[|] w1]; apply pair_eqv_refl.
Qed.

Lemma timeout_layer_eqv pos limit c w : pair_eqv (timeout_layer pos limit inner c w) (timeout_layer pos limit inner' c w).
Proof.
  unfold timeout_layer.
  match goal with |- context [inner ?c' ?w2] => destruct (H c' w2) as [res er al dn sc dn' sc' w3] end.
  destruct (sc_fired _); [apply pair_eqv_refl|].
  cbn [pr_err]. destruct (match er with Some e => errors_is e ETimeout | None => false end); apply pair_eqv_flags.
Qed.

Lemma fallback_layer_eqv pos cfg c w : pair_eqv (fallback_layer pos cfg inner c w) (fallback_layer pos cfg inner' c w).
Proof.
  unfold fallback_layer. destruct (H c w) as [res er al dn sc dn' sc' w1].
  unfold pr_out. cbn [pr_res pr_err].
  destruct (is_failure (fb_fpol cfg) (res, er)); [|apply pair_eqv_refl].
  (* the failure listener is handed the result and the error; what follows reads flags this layer has set *)
  unfold ev_with_result. cbn [with_failure pr_succ pr_res pr_err]. apply pair_eqv_refl.
Qed.

Lemma cache_layer_eqv pos inst cfg c w : pair_eqv (cache_layer pos inst cfg inner c w) (cache_layer pos inst cfg inner' c w).
Proof.
  unfold cache_layer.
  destruct (if cache_key w cfg =? 0 then None else _) as [v|]; [apply pair_eqv_refl|].
  match goal with |- context [inner c ?w1] => destruct (H c w1) as [res er al dn sc dn' sc' w2] end.
  unfold pr_out. cbn [pr_res pr_err]. destruct (_ && _); apply pair_eqv_flags.
Qed.
End Inner.

Lemma apply_policy_eqv fuel pos total p inner inner' :
  layer_eqv inner inner' -> layer_eqv (apply_policy fuel pos total p inner) (apply_policy fuel pos total p inner').
Proof.
  intros H. pose proof (layer_eqv_pairs _ _ H) as Hp. apply pairs_layer_eqv. intros c w.
  destruct p as [rc|bi|li lmw|ki kmw|lim|fc|ci cc|hc]; cbn [apply_policy].
  - apply retry_loop_eqv, Hp.
  - apply breaker_layer_eqv, Hp.
  - apply limiter_layer_eqv, Hp.
  - apply bulkhead_layer_eqv, Hp.
  - apply timeout_layer_eqv, Hp.
  - apply fallback_layer_eqv, Hp.
  - apply cache_layer_eqv, Hp.
  - apply pair_eqv_refl.
Qed.

Fixpoint compose_g (g : presult -> presult) (fuel : nat) (pos : nat) (stack : list policy) (total : nat) : layer :=
  match stack with
  | [] => garbled g (fn_layer total)
  | p :: rest => garbled g (apply_policy fuel pos total p (compose_g g fuel (S pos) rest total))
  end.

Theorem flags_do_not_leak g : (forall r, same_core (g r) r) ->
  forall fuel stack pos total, layer_eqv (compose_g g fuel pos stack total) (compose fuel pos stack total).
Proof.
  intros Hg fuel. induction stack as [|p rest IH]; intros pos total; cbn [compose_g compose].
  - apply garbled_eqv, Hg.
  - eapply layer_eqv_trans; [apply garbled_eqv, Hg|]. apply apply_policy_eqv, IH.
Qed.

Definition execute_g (g : presult -> presult) (fuel : nat) (stack : list policy) (w : world) : presult * world :=
  let '(r, w1) := compose_g g fuel 0 stack (length stack) 0%nat w in
  let o := pr_out r in
  let w2 := if pr_all r then emit w1 KExecSuccess 0 o 0 else emit w1 KExecFailure 0 o 0 in
  (r, emit w2 KExecDone 0 o 0).

Theorem execution_determined_by_result_error_verdict g : (forall r, same_core (g r) r) ->
  forall fuel stack w,
  same_core (fst (execute_g g fuel stack w)) (fst (execute fuel stack w))
  /\ snd (execute_g g fuel stack w) = snd (execute fuel stack w).
Proof.
  intros Hg fuel stack w. unfold execute_g, execute.
  (* the two stacks' returns as in [pair_eqv_flags]: the epilogue reads [pr_all] and [pr_out] only *)
  destruct (layer_eqv_pairs _ _ (flags_do_not_leak g Hg fuel stack 0%nat (length stack)) 0%nat w). repeat split.
Qed.
