(* C11 over an arbitrary result type V.  The theorems are unfoldings of [cache_exec]; none of them looks at a value, which is
   the point: no value (zero, nil, empty) is special. *)
From FS Require Import Model.CacheGen Proofs.Trace.

Section P.
Variable V : Type.

Lemma cget_cset (l : store V) k v : cget (cset l k v) k = Some v.
Proof. unfold cget, cset. cbn [find fst]. rewrite Z.eqb_refl. reflexivity. Qed.

Lemma cget_cset_other (l : store V) k k' v : k' <> k -> cget (cset l k v) k' = cget l k'.
Proof.
  intros Hne. unfold cget, cset. cbn [find fst]. rewrite (proj2 (Z.eqb_neq k k')) by congruence.
  rewrite find_filter; [reflexivity|]. intros p Hp. apply Z.eqb_eq in Hp. apply negb_true_iff, Z.eqb_neq. congruence.
Qed.

Theorem hit_returns_cached_value (l : store V) k v fn : k <> 0 -> cget l k = Some v -> cache_exec l k fn = (v, false, l).
Proof. intros Hk H. unfold cache_exec. rewrite (proj2 (Z.eqb_neq k 0) Hk), H. reflexivity. Qed.

Theorem miss_runs_and_stores (l : store V) k fn : k <> 0 -> cget l k = None ->
  cache_exec l k fn = (fn, true, cset l k fn).
Proof. intros Hk H. unfold cache_exec. rewrite (proj2 (Z.eqb_neq k 0) Hk), H. reflexivity. Qed.

Theorem second_execution_hits (l : store V) k v1 v2 : k <> 0 -> cget l k = None ->
  let l1 := snd (cache_exec l k v1) in cache_exec l1 k v2 = (v1, false, l1).
Proof.
  intros Hk H. cbv zeta. rewrite (miss_runs_and_stores l k v1 Hk H). cbn [snd].
  apply hit_returns_cached_value; [exact Hk|apply cget_cset].
Qed.

Theorem other_keys_untouched (l : store V) k k' fn : k' <> k -> cget (snd (cache_exec l k fn)) k' = cget l k'.
Proof.
  intros Hne. unfold cache_exec. destruct (k =? 0); [reflexivity|]. destruct (cget l k); [reflexivity|].
  cbn [snd]. apply cget_cset_other. exact Hne.
Qed.

Theorem no_key_no_cache (l : store V) fn : cache_exec l 0 fn = (fn, true, l).
Proof. reflexivity. Qed.
End P.
