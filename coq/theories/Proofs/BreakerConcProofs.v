(* C04: while half-open, permits left + running trials of the current generation = capacity ([Inv]), which every step
   but a stale record ([stale_step]) keeps.  Each operation is described by what it does to the state and to that number
   of trials ([permits_ok]); a state change starts a generation that no thread carries yet ([carried]).  [Inv] implies
   the snapshot checker of Corr/C04.v. *)
From FS Require Import Model.BreakerConc Proofs.Trace Proofs.BreakerProofs Corr.C04.

Section ConcProofs.
  Context {S : Type} (I : stats_impl S) (c : bcfg).
  Hypothesis Hcap : 1 <= halfopen_capacity c.

  Definition cntp (P : tstate -> bool) (l : list tstate) : Z := Z.of_nat (length (filter P l)).
  Definition is_gen (g : Z) (t : tstate) : bool := match t with TInFlight g' => g' =? g | _ => false end.

  Lemma cntp_set_nth P l i t : (i < length l)%nat ->
    cntp P (set_nth i t l) = cntp P l - Z.b2z (P (nth i l TDone)) + Z.b2z (P t).
  Proof.
    unfold cntp. revert i; induction l as [|x l IH]; intros [|i] H; cbn [length] in H; try lia.
    - cbn [set_nth nth filter]. destruct (P x), (P t); cbn [length]; lia.
    - cbn [set_nth nth filter]. specialize (IH i ltac:(lia)). destruct (P x); cbn [length]; lia.
  Qed.

  Lemma set_nth_out {A} (l : list A) i t : (length l <= i)%nat -> set_nth i t l = l.
  Proof. revert i; induction l as [|x l IH]; intros [|i] H; cbn in *; try reflexivity; try lia. f_equal. apply IH. lia. Qed.

  Definition bounded (g : Z) (l : list tstate) : Prop := forall g', In (TInFlight g') l -> g' <= g.

  Lemma bounded_fresh g g' l : bounded g l -> g < g' -> cntp (is_gen g') l = 0.
  Proof.
    intros Hb Hg. unfold cntp. rewrite filter_none; [reflexivity|].
    intros [| |gx|] Hx; try reflexivity. specialize (Hb gx Hx). cbn. lia.
  Qed.

  Lemma bounded_mono g g' l : bounded g l -> g <= g' -> bounded g' l.
  Proof. intros H Hg x Hx. specialize (H x Hx). lia. Qed.

  Lemma in_set_nth {A} (l : list A) i t x : In x (set_nth i t l) -> x = t \/ In x l.
  Proof.
    revert i; induction l as [|y l IH]; intros [|i] H; cbn in *; try tauto.
    - destruct H as [<-|H]; tauto.
    - destruct H as [<-|H]; [tauto|]. destruct (IH i H); tauto.
  Qed.

  Lemma bounded_set g l i t : bounded g l -> (forall g', t = TInFlight g' -> g' <= g) -> bounded g (set_nth i t l).
  Proof.
    intros Hb Ht g' Hin. apply in_set_nth in Hin. destruct Hin as [E|Hin]; [apply Ht; symmetry; exact E|apply Hb; exact Hin].
  Qed.

  Definition Inv (k : @conf S) : Prop :=
    bounded (cf_gen k) (cf_threads k) /\
    match cf_state k with
    | HalfOpen _ p => 0 <= p /\ p + cntp (is_gen (cf_gen k)) (cf_threads k) = halfopen_capacity c
    | Open _ _ _ => cntp (is_gen (cf_gen k)) (cf_threads k) = 0
    | Closed _ => True
    end.

  (* what [Inv] asks of the state when [n] trials of the current generation are running *)
  Definition permits_ok (s : bstate (S := S)) (n : Z) : Prop :=
    match s with
    | HalfOpen _ p => 0 <= p /\ p + n = halfopen_capacity c
    | Open _ _ _ => n = 0
    | Closed _ => True
    end.

  (* Events mean a state change, which starts a generation that no thread carries yet: what is left of [n] running
     trials once [evs] are logged. *)
  Definition carried (evs : list bevent) (n : Z) : Z := match evs with [] => n | _ => 0 end.

  Lemma gen_carried g l evs : bounded g l ->
    bounded (bump g evs) l /\ cntp (is_gen (bump g evs)) l = carried evs (cntp (is_gen g) l).
  Proof.
    intros Hb. unfold bump. destruct evs as [|e evs]; cbn [length carried].
    - rewrite Z.add_0_r. split; [exact Hb|reflexivity].
    - split; [apply (bounded_mono g)|apply (bounded_fresh g)]; (exact Hb || lia).
  Qed.

  Lemma transition_permits s now tgt d n : permits_ok s n ->
    let '(s', evs) := transition I c s now tgt d in permits_ok s' (carried evs n).
  Proof.
    intros Hs. unfold transition. destruct (state_code s =? tgt); [exact Hs|].
    (* a change logs events, so no trial is carried over; a half-open state starts with all permits *)
    destruct (tgt =? 0); [|destruct (tgt =? 1)]; cbn; lia.
  Qed.

  Lemma try_acquire_permits s now n : permits_ok s n ->
    let '(ok, s', evs) := try_acquire I c s now in permits_ok s' (carried evs n + Z.b2z ok).
  Proof.
    intros Hs. destruct s as [st|st a d|st p]; cbn [try_acquire permits_ok] in *.
    - exact Logic.I.
    - destruct (d <=? now - a); [|cbn; lia].   (* else: rejected *)
      (* half-opens with all permits; the thread takes one (E: there is one, by Hcap) *)
      rewrite transition_open_half. destruct (0 <? halfopen_capacity c) eqn:E; cbn; lia.
    - destruct (0 <? p) eqn:E; cbn; lia.
  Qed.

  (* [m] trials of the current generation besides the recording thread; [b]: it is one itself, as it must be while
     half-open ([stale_step]) *)
  Lemma record_permits s now v r m b :
    permits_ok s (m + Z.b2z b) -> 0 <= m -> match s with HalfOpen _ _ => negb b | _ => false end = false ->
    let '(s', evs) := record I c s now v r in permits_ok s' (carried evs m).
  Proof.
    intros Hs Hm Hst. unfold record. destruct s as [st|st a d|st p]; cbn [state_stats with_stats check_threshold permits_ok] in *.
    - destruct (b_fexec c <=? _); [destruct (_ || _)|]; cbn; trivial.   (* opens, with events (0 = 0), or stays closed (True) *)
    - cbn. destruct b; cbn in Hs; lia.   (* no change, and by Hs no trial was running *)
    - (* the recording thread is a trial (Hst); the pair: (success, failure) threshold met *)
      destruct b; [|discriminate Hst]. destruct (if negb (b_sthr c =? 0) then _ else _) as [[] []]; cbn in *.
      1, 2: exact Logic.I.
      + reflexivity.
      + lia.   (* stays half-open: the trial's permit comes back *)
  Qed.

  Theorem step_preserves_inv k st : Inv k -> stale_step k st = false -> Inv (conc_step I c k st).
  Proof.
    intros [Hb Hs] Hstale. destruct st as [i|i v r|dt|tgt]; cbn [conc_step]; unfold set_thread.
    - (* the generation may change, then the thread enters with the one it finds *)
      destruct (nth i (cf_threads k) TDone) eqn:Ei; try exact (conj Hb Hs).
      pose proof (nth_in_range _ _ _ _ Ei ltac:(discriminate)) as Hi.
      pose proof (try_acquire_permits _ (cf_now k) _ Hs) as Ha.
      destruct (try_acquire I c (cf_state k) (cf_now k)) as [[ok s'] evs].
      destruct (gen_carried _ _ evs Hb) as [Hb' Hc].
      split; cbn [cf_state cf_gen cf_threads].
      + apply bounded_set; [exact Hb'|]. destruct ok; [intros g' [= <-]; lia|discriminate].
      + rewrite cntp_set_nth, Ei, Hc by exact Hi.
        replace (is_gen _ (if ok then _ else _)) with ok by (destruct ok; cbn [is_gen]; lia).
        cbn [is_gen]. rewrite Z.sub_0_r. exact Ha.
    - (* the thread leaves, then the generation may change *)
      destruct (nth i (cf_threads k) TDone) as [| |g0|] eqn:Ei; try exact (conj Hb Hs).
      pose proof (nth_in_range _ _ _ _ Ei ltac:(discriminate)) as Hi.
      cbn [stale_step] in Hstale. rewrite Ei in Hstale.
      (* Hc0: with thread i done (l'), one trial of the current generation fewer if it was one *)
      pose proof (cntp_set_nth (is_gen (cf_gen k)) _ i TDone Hi) as Hc0. rewrite Ei in Hc0. cbn [is_gen Z.b2z] in Hc0.
      set (l' := set_nth i TDone (cf_threads k)) in *.
      (* Hs as [record_permits] reads it: the other trials, plus the recording thread *)
      replace (cntp _ (cf_threads k)) with (cntp (is_gen (cf_gen k)) l' + Z.b2z (g0 =? cf_gen k)) in Hs by lia.
      pose proof (record_permits _ (cf_now k) v r _ _ Hs ltac:(unfold cntp; lia) Hstale) as Hr.
      destruct (record I c (cf_state k) (cf_now k) v r) as [s' evs].
      destruct (gen_carried (cf_gen k) l' evs) as [Hb' Hc]; [apply bounded_set; [exact Hb|discriminate]|].
      split; cbn [cf_state cf_gen cf_threads]; [exact Hb'|rewrite Hc; exact Hr].
    - exact (conj Hb Hs).
    - pose proof (transition_permits _ (cf_now k) tgt (b_delay c) _ Hs) as Ht.
      destruct (transition I c (cf_state k) (cf_now k) tgt (b_delay c)) as [s' evs].
      destruct (gen_carried _ _ evs Hb) as [Hb' Hc].
      split; cbn [cf_state cf_gen cf_threads]; [exact Hb'|rewrite Hc; exact Ht].
  Qed.

  Theorem run_preserves_inv tr : forall k, Inv k -> no_stale I c k tr = true -> Inv (conc_run I c k tr).
  Proof.
    induction tr as [|st tr IH]; intros k Hk Hn; [exact Hk|].
    cbn [no_stale] in Hn. apply andb_true_iff in Hn. destruct Hn as [H1 H2].
    cbn [conc_run fold_left]. apply IH; [|exact H2].
    apply step_preserves_inv; [exact Hk|]. destruct (stale_step k st); [discriminate|reflexivity].
  Qed.

  Corollary half_open_bound tr k : Inv k -> no_stale I c k tr = true ->
    match cf_state (conc_run I c k tr) with
    | HalfOpen _ p => 0 <= inflight_now (conc_run I c k tr) <= halfopen_capacity c
                      /\ (inflight_now (conc_run I c k tr) = 0 -> p = halfopen_capacity c)
    | _ => True
    end.
  Proof.
    intros Hk Hn. pose proof (run_preserves_inv tr k Hk Hn) as [_ H].
    destruct (cf_state (conc_run I c k tr)); try exact Logic.I.
    change (inflight_now (conc_run I c k tr)) with (cntp (is_gen (cf_gen (conc_run I c k tr))) (cf_threads (conc_run I c k tr))).
    unfold cntp in *. lia.
  Qed.

  Theorem open_rejects_all k i a st d :
    cf_state k = Open a st d -> cf_now k - st < d -> nth i (cf_threads k) TDone = TIdle ->
    conc_step I c k (CAcquire i) =
      {| cf_state := cf_state k; cf_now := cf_now k; cf_gen := cf_gen k;
         cf_threads := set_thread i TRejected (cf_threads k) |}.
  Proof.
    intros Hs Hd Hi. cbn [conc_step]. rewrite Hi, Hs. cbn [try_acquire].
    destruct (d <=? cf_now k - st) eqn:E; [lia|]. unfold bump. cbn [length]. rewrite Z.add_0_r. reflexivity.
  Qed.

  Lemma inv_init threads : (forall t, In t threads -> t = TIdle) -> forall now,
    Inv {| cf_state := new_closed I c; cf_now := now; cf_gen := 0; cf_threads := threads |}.
  Proof.
    intros H now. split; [|exact Logic.I]. intros g Hin. specialize (H _ Hin). discriminate.
  Qed.
End ConcProofs.

Example half_open_bound_needs_proviso :
  let c := build_bcfg [WithFailureThreshold 1; WithDelay 0] in
  let k0 := {| cf_state := cb_init c; cf_now := 0; cf_gen := 0; cf_threads := [TIdle; TIdle; TIdle; TIdle] |} in
  let tr := [CAcquire 0; CAcquire 1; CRecord 1 false None; CAcquire 2; CRecord 0 true None; CAcquire 3] in
  no_stale conc_impl c k0 tr = false /\
  map (fun t => match t with TInFlight _ => true | _ => false end) (cf_threads (conc_run conc_impl c k0 tr))
    = [false; false; true; true].
Proof. vm_compute. auto. Qed.

(* 0 <= g: [tgen] is -1 on the threads that are not in flight *)
Lemma filter_tgen g l : 0 <= g ->
  length (filter (fun x => x =? g) (map tgen l)) = length (filter (is_gen g) l).
Proof.
  intros Hg. induction l as [|t l IH]; [reflexivity|]. cbn [map filter].
  destruct t as [| |g'|]; cbn [tgen is_gen].
  3: { (* in flight: counted on both sides iff g' = g *) destruct (g' =? g); cbn [length]; lia. }
  (* not in flight *)
  all: destruct (-1 =? g) eqn:E; [lia|exact IH].
Qed.

Lemma existsb_filter_nil {A} (f : A -> bool) l : length (filter f l) = 0%nat -> existsb f l = false.
Proof. induction l as [|x l IH]; [reflexivity|]. cbn [filter existsb]. destruct (f x); [discriminate|exact IH]. Qed.

Theorem inv_implies_snap_ok c (k : conf (S := stats)) :
  0 <= cf_gen k -> Inv c k -> snap_ok (halfopen_capacity c) (snap_of k) = true.
Proof.
  intros Hg [Hb Hs]. unfold snap_ok, snap_of. cbn [sn_state sn_gen sn_gens].
  destruct (cf_state k) as [st|st a b|st p]; cbn [state_code].
  - reflexivity.
  - cbn. rewrite existsb_filter_nil; [reflexivity|]. rewrite filter_tgen by exact Hg. unfold cntp in Hs. lia.
  - cbn. rewrite filter_tgen by exact Hg. destruct Hs as [Hp Hsum]. unfold cntp in Hsum. lia.
Qed.

Lemma gen_monotone {S} (I : stats_impl S) c k st : cf_gen k <= cf_gen (conc_step I c k st).
Proof.
  destruct st as [i|i v r|dt|tgt]; cbn [conc_step].
  - destruct (nth i (cf_threads k) TDone); try lia.
    destruct (try_acquire I c (cf_state k) (cf_now k)) as [[ok s'] evs]. cbn [cf_gen]. unfold bump. lia.
  - destruct (nth i (cf_threads k) TDone); try lia.
    destruct (record I c (cf_state k) (cf_now k) v r) as [s' evs]. cbn [cf_gen]. unfold bump. lia.
  - cbn [cf_gen]. lia.
  - destruct (transition I c (cf_state k) (cf_now k) tgt (b_delay c)) as [s' evs]. cbn [cf_gen]. unfold bump. lia.
Qed.

Theorem model_snaps_ok c tr : 1 <= halfopen_capacity c ->
  forall k, 0 <= cf_gen k -> Inv c k -> no_stale conc_impl c k tr = true ->
  forallb (snap_ok (halfopen_capacity c)) (model_snaps c k tr) = true.
Proof.
  intros Hcap. induction tr as [|st tr IH]; intros k Hg Hk Hn; [reflexivity|].
  cbn [no_stale] in Hn. apply andb_true_iff in Hn. destruct Hn as [H1 H2].
  cbn [model_snaps forallb].
  assert (Hk' : Inv c (conc_step conc_impl c k st)).
  { apply step_preserves_inv; [exact Hcap|exact Hk|]. destruct (stale_step k st); [discriminate|reflexivity]. }
  pose proof (gen_monotone conc_impl c k st) as Hm.
  rewrite inv_implies_snap_ok by (try assumption; lia). cbn [andb].
  apply IH; [lia|exact Hk'|exact H2].
Qed.
