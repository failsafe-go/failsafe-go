(* C02 over whole executions: a retry policy with a bound starts at most maxRetries retries, however often the policies
   around it re-enter it (its count of failed attempts lives in the execution's ledger, not in one run of its loop).
   By the log relations of Proofs/ExecSteps.v ([log_rel]): the invariant
       (OnRetry events of position p0 so far) <= (failed attempts charged to p0's ledger)  and  <= maxRetries
   is kept by every layer at another position (none logs an OnRetry of p0 or writes p0's ledger) and by p0's own loop
   (a retry starts only after a failure was charged and the ledger did not exceed the bound). *)
From FS Require Import Model.Exec Spec.Verdict Proofs.ExecProofs Proofs.ExecSteps Proofs.ExecEventsProofs Proofs.ExecRetryEvents.
From FS Require Import Corr.ExecCorr Corr.ExecCheckers.

Definition retry_at (p0 : nat) (e : event) : bool := kind_is KRetry e && Nat.eqb (e_pos e) p0.
Definition rcount (p0 : nat) (w : world) : Z := Z.of_nat (length (filter (retry_at p0) (w_trace w))).

Definition Nb (p0 : nat) (k : evk) (q : nat) : Prop := (evk_code k =? evk_code KRetry) = false \/ q <> p0.
Definition Pb (p0 : nat) (q : nat) : Prop := q <> p0.

Lemma Nb_plain p0 k q : plain_kind k = true -> Nb p0 k q.
Proof. intros H. left. destruct k; cbn in H; try discriminate; reflexivity. Qed.

Lemma rcount_emit p0 w k q o aux : Nb p0 k q -> rcount p0 (emit w k q o aux) = rcount p0 w.
Proof.
  intros H. unfold rcount, emit. cbn [w_trace set_trace filter]. unfold retry_at at 1, kind_is. cbn [e_kind e_pos].
  destruct H as [H|H]; [rewrite H; reflexivity|].
  destruct (Nat.eqb q p0) eqn:E; [apply Nat.eqb_eq in E; contradiction|]. rewrite andb_false_r. reflexivity.
Qed.

Lemma rcount_stamp p0 w c : rcount p0 (stamp w c) = rcount p0 w.
Proof.
  assert (H : forall e e' t, e_kind e' = e_kind e -> e_pos e' = e_pos e ->
            length (filter (retry_at p0) (e' :: t)) = length (filter (retry_at p0) (e :: t))).
  { intros e e' t Hk Hp. cbn [filter]. unfold retry_at, kind_is. rewrite Hk, Hp. destruct (_ && _); reflexivity. }
  unfold rcount, stamp. destruct (w_trace w) as [|e t] eqn:E; [rewrite E; reflexivity|]. cbn [w_trace set_trace].
  f_equal. apply H; reflexivity.
Qed.

Lemma rcount_retry p0 w c o aux : rcount p0 (stamp (emit w KRetry p0 o aux) c) = rcount p0 w + 1.
Proof.
  rewrite rcount_stamp. unfold rcount, emit. cbn [w_trace set_trace filter]. unfold retry_at at 1, kind_is.
  cbn [e_kind e_pos]. rewrite Nat.eqb_refl. cbn [andb evk_code Z.eqb Pos.eqb length]. lia.
Qed.

Definition bsame (p0 : nat) (w w' : world) : Prop := rcount p0 w' = rcount p0 w /\ get_rstate w' p0 = get_rstate w p0.

Lemma b_refl p0 w : bsame p0 w w. Proof. split; reflexivity. Qed.
Lemma b_trans p0 a b c : bsame p0 a b -> bsame p0 b c -> bsame p0 a c.
Proof. intros [A1 A2] [B1 B2]. split; congruence. Qed.
Lemma b_frame p0 w w' : w_trace w' = w_trace w -> w_retry w' = w_retry w -> bsame p0 w w'.
Proof. intros Ht Hr. split; [unfold rcount; rewrite Ht; reflexivity|apply get_rstate_ext, Hr]. Qed.
Lemma b_put p0 w q r : Pb p0 q -> bsame p0 w (put_rstate w q r).
Proof. intros H. split; [reflexivity|apply get_put_rstate_other, H]. Qed.
Lemma b_emit p0 w k q o aux : Nb p0 k q -> bsame p0 w (emit w k q o aux).
Proof. intros H. split; [apply rcount_emit, H|apply get_rstate_ext; reflexivity]. Qed.
Lemma b_stamp p0 w c : bsame p0 w (stamp w c).
Proof. split; [apply rcount_stamp|apply get_rstate_stamp]. Qed.
Lemma bsame_log p0 : log_rel (bsame p0) (Nb p0) (Pb p0).
Proof.
  split; [apply b_refl|apply b_trans|apply b_frame|apply b_put|apply b_emit|apply b_stamp|].
  intros k q H. apply Nb_plain, plain_verdict, H.
Qed.

Theorem compose_bquiet p0 fuel stack : forall start total, (p0 < start)%nat -> quiet (bsame p0) (compose fuel start stack total).
Proof.
  intros start total Hlt c w. apply (compose_log (bsame_log p0)).
  - intros k q (p & Hq & _). right. lia.
  - intros q (cfg & Hq & _). unfold Pb. lia.
Qed.

Definition Inv (p0 : nat) (m : Z) (w : world) : Prop :=
  rcount p0 w <= rs_failed (get_rstate w p0) /\ rcount p0 w <= m.
Definition Irel (p0 : nat) (m : Z) (w w' : world) : Prop := Inv p0 m w -> Inv p0 m w'.

Lemma bsame_Irel p0 m w w' : bsame p0 w w' -> Irel p0 m w w'.
Proof. intros [A B] [H1 H2]. unfold Inv. rewrite A, B. split; assumption. Qed.

Lemma i_refl p0 m w : Irel p0 m w w. Proof. intros H. exact H. Qed.
Lemma i_trans p0 m a b c : Irel p0 m a b -> Irel p0 m b c -> Irel p0 m a c. Proof. unfold Irel. auto. Qed.
Lemma i_frame p0 m w w' : w_trace w' = w_trace w -> w_retry w' = w_retry w -> Irel p0 m w w'.
Proof. intros. apply bsame_Irel, b_frame; assumption. Qed.
Lemma i_put p0 m w q r : Pb p0 q -> Irel p0 m w (put_rstate w q r). Proof. intros. apply bsame_Irel, b_put; assumption. Qed.
Lemma i_emit p0 m w k q o aux : Nb p0 k q -> Irel p0 m w (emit w k q o aux). Proof. intros. apply bsame_Irel, b_emit; assumption. Qed.
Lemma i_stamp p0 m w c : Irel p0 m w (stamp w c). Proof. apply bsame_Irel, b_stamp. Qed.
Lemma Irel_log p0 m : log_rel (Irel p0 m) (Nb p0) (Pb p0).
Proof.
  split; [apply i_refl|apply i_trans|apply i_frame|apply i_put|apply i_emit|apply i_stamp|].
  intros k q H. apply Nb_plain, plain_verdict, H.
Qed.

Lemma Inv_drain p0 m w : Inv p0 m w -> Inv p0 m (drain w).
Proof. exact (drain_log (Irel_log p0 m) w). Qed.

(* the count alone: what p0's own verdict on a failed attempt logs contains no OnRetry *)
Definition csame (p0 : nat) (w w' : world) : Prop := rcount p0 w' = rcount p0 w.
Lemma c_refl p0 w : csame p0 w w. Proof. reflexivity. Qed.
Lemma c_trans p0 a b c : csame p0 a b -> csame p0 b c -> csame p0 a c. Proof. unfold csame. congruence. Qed.
Lemma c_frame p0 w w' : w_trace w' = w_trace w -> w_retry w' = w_retry w -> csame p0 w w'.
Proof. intros Ht _. unfold csame, rcount. rewrite Ht. reflexivity. Qed.
Lemma c_put p0 w q r : True -> csame p0 w (put_rstate w q r). Proof. reflexivity. Qed.
Lemma c_emit p0 w k q o aux : (evk_code k =? evk_code KRetry) = false -> csame p0 w (emit w k q o aux).
Proof. intros H. apply rcount_emit. left. exact H. Qed.
Lemma c_stamp p0 w c : csame p0 w (stamp w c). Proof. apply rcount_stamp. Qed.
Lemma c_plain k (q : nat) : plain_kind k = true -> (evk_code k =? evk_code KRetry) = false.
Proof. intros H. destruct k; cbn in H; try discriminate; reflexivity. Qed.

Lemma csame_log p0 : log_rel (csame p0) (fun k _ => (evk_code k =? evk_code KRetry) = false) (fun _ => True).
Proof.
  split; [apply c_refl|apply c_trans|apply c_frame|intros; apply c_put; exact I|apply c_emit|apply c_stamp|].
  intros k q H. apply (c_plain k q), plain_verdict, H.
Qed.

Lemma retry_on_failure_count p0 cfg c r w : rcount p0 (snd (retry_on_failure cfg p0 c r w)) = rcount p0 w.
Proof. apply (retry_on_failure_log (csame_log p0)); [exact I|reflexivity..]. Qed.

Lemma retry_loop_Inv p0 cfg inner : 0 <= r_max_retries cfg -> quiet (Irel p0 (r_max_retries cfg)) inner ->
  forall fuel c w, Inv p0 (r_max_retries cfg) w -> Inv p0 (r_max_retries cfg) (snd (fst (retry_loop fuel cfg p0 inner c w))).
Proof.
  intros Hm Hi fuel c. set (m := r_max_retries cfg) in *.
  set (Q w := rcount p0 w + 1 <= rs_failed (get_rstate w p0) /\ rcount p0 w + 1 <= m).
  assert (HQ : forall w w', bsame p0 w w' -> Inv p0 m w -> Q w -> Inv p0 m w' /\ Q w')
    by (intros w w' [Bc Br]; unfold Inv, Q; rewrite Bc, Br; auto).
  apply (retry_loop_inv p0 cfg inner c (Inv p0 m) Q Q).
  - exact (fun _ H => H).
  - apply Hi.
  - intros w r HI _. exact (semit_log (Irel_log p0 m) w w KPolSuccess p0 _ 0 c eq_refl eq_refl (or_introl eq_refl) HI).
  - (* a failed attempt: charged; it logs no OnRetry; if not done, the budget was not exceeded *)
    intros w r [Ia Ib] _. pose proof (retry_on_failure_goes_on cfg p0 c r w) as Hle.
    unfold Inv, Q. rewrite retry_on_failure_count, retry_on_failure_charges. split; [split; lia|].
    intros Hd. specialize (Hle Hd ltac:(lia)). split; lia.
  - intros w o o' d. apply HQ, (semit_log (bsame_log p0)); auto. left. reflexivity.
  - intros w d. apply HQ, (wait_log (bsame_log p0)).
  - intros w o aux _ HP. unfold Inv. rewrite rcount_retry, get_rstate_stamp. exact HP.
Qed.

Theorem compose_Inv p0 cfg0 fuel : 0 <= r_max_retries cfg0 -> forall stack start total,
  ((start <= p0)%nat -> nth_error stack (p0 - start) = Some (PRetry cfg0)) ->
  quiet (Irel p0 (r_max_retries cfg0)) (compose fuel start stack total).
Proof.
  intros Hm stack start total Hp. apply compose_ind; [intros c w; apply (fn_layer_log (Irel_log p0 _))|].
  intros i p inner Hi IH. destruct (Nat.eq_dec (start + i) p0) as [<-|Hne].
  - replace (start + i - start)%nat with i in Hp by lia. rewrite Hp in Hi by lia. injection Hi as <-.
    exact (retry_loop_Inv _ cfg0 _ Hm IH fuel).
  - intros c w. apply (apply_policy_log (Irel_log p0 _)); [right; exact Hne|intros _; exact Hne|exact IH].
Qed.

Theorem retries_within_budget fuel stack now ext key b l k c script p0 cfg0 :
  nth_error stack p0 = Some (PRetry cfg0) -> 0 <= r_max_retries cfg0 ->
  rcount p0 (drain (snd (execute fuel stack (fresh_world now ext key b l k c script)))) <= r_max_retries cfg0.
Proof.
  intros Hn Hm.
  apply (run_log (Irel_log p0 (r_max_retries cfg0)) fuel stack now ext key b l k c script).
  - apply (compose_Inv p0 cfg0 fuel Hm). intros _. rewrite Nat.sub_0_r. exact Hn.
  - unfold Inv. cbn. lia.
Qed.

Lemma filter_filter_len {A} (f g : A -> bool) (l : list A) : (forall x, g x = false -> f x = false) ->
  length (filter f (filter g l)) = length (filter f l).
Proof.
  intros H. induction l as [|x l IH]; [reflexivity|]. cbn [filter]. destruct (g x) eqn:E; cbn [filter].
  - destruct (f x); cbn [length]; rewrite IH; reflexivity.
  - rewrite (H x E). exact IH.
Qed.

Lemma filter_rev_len {A} (f : A -> bool) (l : list A) : length (filter f (rev l)) = length (filter f l).
Proof.
  induction l as [|x l IH]; [reflexivity|]. cbn [rev]. rewrite filter_app, app_length, IH. cbn [filter].
  destruct (f x); cbn [length]; lia.
Qed.

Lemma combine_seq_nth {A} (l : list A) : forall s i x, In (i, x) (combine (seq s (length l)) l) -> nth_error l (i - s) = Some x /\ (s <= i)%nat.
Proof.
  induction l as [|y l IH]; intros s i x H; [destruct H|]. cbn [length seq combine] in H. destruct H as [H|H].
  - injection H as <- <-. rewrite Nat.sub_diag. split; [reflexivity|lia].
  - destruct (IH (S s) i x H) as [E L]. split; [|lia]. replace (i - s)%nat with (S (i - S s)) by lia. exact E.
Qed.

Theorem retries_checker_accepts_model fuel stack now ext key b l k c script lsn mask q o :
  q_stack q = stack ->
  x_events o = filter (blsn_keeps mask) (filter (lsn_keeps lsn)
     (rev (w_trace (drain (snd (execute fuel stack (fresh_world now ext key b l k c script))))))) ->
  retries_bounded q o = true.
Proof.
  intros Hs Ho. unfold retries_bounded. rewrite Hs. apply forallb_forall. intros [i pol] Hin.
  destruct (combine_seq_nth stack 0%nat i pol Hin) as [Hn _]. rewrite Nat.sub_0_r in Hn. cbn [fst snd].
  destruct pol as [cfg| | | | | | |]; try reflexivity.
  destruct (0 <=? r_max_retries cfg) eqn:E0; [|reflexivity]. apply Z.leb_le in E0. apply Z.leb_le.
  pose proof (retries_within_budget fuel stack now ext key b l k c script i cfg Hn E0) as H. unfold rcount in H.
  rewrite Ho.
  assert (Hk : forall e, verdict_kind (e_kind e) = false -> kind_is KRetry e && Nat.eqb (e_pos e) i = false)
    by (intros e; unfold kind_is; destruct (e_kind e); cbn; congruence).
  rewrite !filter_filter_len by (intros e He; apply Hk; revert He; (apply blsn_keeps_verdict || apply lsn_keeps_verdict)).
  rewrite filter_rev_len. exact H.
Qed.

(* the bound is reached, also by a policy that an enclosing retry policy re-enters: outer (2 retries) around inner (1 retry)
   around a function that always fails -- the inner policy starts its one retry in the first outer attempt and none later *)
Example budget_is_reached_when_nested :
  let rc n := {| r_fpol := build_fpolicy []; r_abort := []; r_max_retries := n; r_max_duration := 0; r_return_last := false;
                 r_delay := 0; r_lsn_dur := 0 |} in
  let stack := [PRetry (rc 2); PRetry (rc 1)] in
  let w := drain (snd (execute 64 stack (fresh_world 0 None CKNone [] [] [] []
                 [{| fs_out := (0, Some (ESent 0)); fs_dur := 0; fs_coop := None; fs_lag := 0 |}]))) in
  rcount 0 w = 2 /\ rcount 1 w = 1 /\ Z.of_nat (length (filter (kind_is KFnStart) (w_trace w))) = 4.
Proof. vm_compute. repeat split. Qed.
