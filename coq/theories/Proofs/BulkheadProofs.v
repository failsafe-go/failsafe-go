(* C06: never above the limit, never a lost permit, for every interleaving.
   One invariant ([KInv]) ties the channel occupancy to the number of holders and says that only waiting executions
   are queued; a returned permit goes to the head of the queue. *)
From FS Require Import Model.Bulkhead Proofs.Trace.

Definition is_holding (s : kstate) : bool := match s with KHolding => true | _ => false end.
Definition is_waiting (s : kstate) : bool := match s with KWaiting _ => true | _ => false end.
Definition cnt (P : kstate -> bool) (l : list kstate) : Z := Z.of_nat (length (filter P l)).

Lemma cnt_set_k P l i v : (i < length l)%nat ->
  cnt P (set_k i v l) = cnt P l - (if P (nth i l KReleased) then 1 else 0) + (if P v then 1 else 0).
Proof.
  unfold cnt. revert i; induction l as [|x l IH]; intros [|i] H; cbn [length] in H; try lia.
  - cbn [set_k nth filter]. destruct (P x), (P v); cbn [length]; lia.
  - cbn [set_k nth filter]. specialize (IH i ltac:(lia)). destruct (P x); cbn [length]; lia.
Qed.

Lemma cnt_nonneg P l : 0 <= cnt P l. Proof. unfold cnt. lia. Qed.

Lemma NoDup_snoc {A} (l : list A) x : NoDup l -> ~ In x l -> NoDup (l ++ [x]).
Proof. intros Hn Hx. apply (NoDup_Add (Add_app x l [])). rewrite app_nil_r. auto. Qed.

Lemma set_k_length l i v : length (set_k i v l) = length l.
Proof. revert i; induction l as [|x l IH]; intros [|i]; cbn; auto. Qed.

Lemma nth_set_k_same l i v : (i < length l)%nat -> nth i (set_k i v l) KReleased = v.
Proof. revert i; induction l as [|x l IH]; intros [|i] H; cbn in *; try lia; auto. apply IH; lia. Qed.

Lemma nth_set_k_other l i j v : i <> j -> nth j (set_k i v l) KReleased = nth j l KReleased.
Proof. revert i j; induction l as [|x l IH]; intros [|i] [|j] H; cbn; try reflexivity; try lia. apply IH; lia. Qed.

Definition queued (ts : list kstate) (q : list nat) : Prop := forall j, In j q -> is_waiting (nth j ts KReleased) = true.

Lemma queued_not_in ts q i a : queued ts q -> nth i ts KReleased = a -> is_waiting a = false -> ~ In i q.
Proof. intros Hq Ei Ha Hi. specialize (Hq i Hi). rewrite Ei in Hq. congruence. Qed.

Lemma queued_set_k ts q i v : queued ts q -> ~ In i q -> queued (set_k i v ts) q.
Proof. intros Hq Hi j Hj. rewrite nth_set_k_other; [exact (Hq j Hj)|]. intros ->. contradiction. Qed.

Lemma holders_set_k ts i a : nth i ts KReleased = a -> a <> KReleased -> forall v,
  cnt is_holding (set_k i v ts) = cnt is_holding ts - (if is_holding a then 1 else 0) + (if is_holding v then 1 else 0).
Proof. intros Ei Ha v. rewrite cnt_set_k by exact (nth_in_range _ _ _ _ Ei Ha). rewrite Ei. reflexivity. Qed.

Record KInv (cap : Z) (k : bconf) : Prop := {
  ki_capacity : k_cap k = cap;
  ki_held : k_held k = cnt is_holding (k_threads k) + k_ext k;
  ki_cap : k_held k <= cap;
  ki_q : queued (k_threads k) (k_queue k);
  ki_nodup : NoDup (k_queue k) }.

Lemma kinit_inv cap mw now n : 0 <= cap -> KInv cap (kinit cap mw now n).
Proof.
  intros H. constructor; cbn [kinit k_cap k_held k_ext k_threads k_queue]; [reflexivity| |lia|intros j []|constructor].
  (* ki_held: an idle execution holds nothing *) unfold cnt. induction n as [|n IH]; cbn; [reflexivity|exact IH].
Qed.

Lemma expire_holding t l : cnt is_holding (expire t l) = cnt is_holding l.
Proof.
  unfold cnt, expire. induction l as [|x l IH]; cbn [map filter]; [reflexivity|].
  destruct x; cbn [is_holding].
  2: { (* waiting: no holder before or after *) destruct (deadline <=? t); cbn [is_holding]; exact IH. }
  2: { (* holding: counted on both sides *) cbn [length]. lia. }
  all: exact IH.   (* not changed, not counted *)
Qed.

(* the + 1 is the permit on its way back *)
Lemma give_back_inv cap k ts ext :
  k_cap k = cap -> k_held k = cnt is_holding ts + ext + 1 -> k_held k <= cap ->
  queued ts (k_queue k) -> NoDup (k_queue k) ->
  KInv cap (give_back k ext ts).
Proof.
  intros Hcap Hh Hc Hq Hnd. unfold give_back. destruct (k_queue k) as [|j q'].
  - (* nobody waits *)
    constructor; cbn [k_held k_ext k_threads k_queue k_cap with_threads]; [exact Hcap|lia|lia|intros j []|constructor].
  - (* the oldest waiting execution j gets the permit *) apply NoDup_cons_iff in Hnd as [Hj Hnd'].
    constructor; cbn [k_held k_ext k_threads k_queue k_cap with_threads]; try assumption.
    + (* ki_held: j was waiting (Hw) and now holds *)
      pose proof (Hq j (or_introl eq_refl)) as Hw. destruct (nth j ts KReleased) eqn:Ej; try discriminate Hw.
      rewrite (holders_set_k _ _ _ Ej) by discriminate. cbn [is_holding]. lia.
    + (* ki_q *)
      apply queued_set_k; [|exact Hj]. intros i Hi. apply Hq. right. exact Hi.
Qed.

Theorem kstep_inv cap k x : KInv cap k -> KInv cap (kstep_do k x).
Proof.
  intros Inv. pose proof Inv as [Hcap Hh Hc Hq Hnd]. destruct x as [i|i|i|dt| |]; cbn [kstep_do].
  - (* KEnter, of an idle execution *)
    destruct (kget k i) eqn:Ei; try exact Inv.
    pose proof (holders_set_k _ _ _ Ei ltac:(discriminate)) as Hcnt.
    pose proof (queued_not_in _ _ _ _ Hq Ei eq_refl) as Hi.
    (* phase 1 takes a free permit; otherwise refused at once or queued *)
    destruct (k_held k <? k_cap k) eqn:Efree; [|destruct (k_maxwait k <=? 0)];
      constructor; cbn [k_held k_ext k_threads k_queue k_cap with_threads]; try assumption.
    all: try (rewrite Hcnt; cbn [is_holding]; lia).   (* ki_held, in the three cases *)
    all: try (apply queued_set_k; assumption).   (* ki_q where the queue is as it was *)
    + (* free permit: ki_cap *) lia.
    + (* queued: ki_q, the new entry i is waiting now *)
      intros j [Hj|[<-|[]]]%in_app_or; [exact (queued_set_k _ _ _ _ Hq Hi j Hj)|].
      rewrite nth_set_k_same; [reflexivity|]. apply (nth_in_range _ _ _ _ Ei). discriminate.
    + apply NoDup_snoc; assumption.
  - (* KFinish *)
    destruct (kget k i) eqn:Ei; try exact Inv.
    apply give_back_inv; try assumption.
    + rewrite (holders_set_k _ _ _ Ei) by discriminate. cbn [is_holding]. lia.
    + apply queued_set_k, (queued_not_in _ _ _ _ Hq Ei eq_refl). exact Hq.
  - (* KCancelCtx *)
    destruct (kget k i) eqn:Ei; try exact Inv.
    constructor; cbn [k_held k_ext k_threads k_queue k_cap with_threads]; try assumption.
    + rewrite (holders_set_k _ _ _ Ei) by discriminate. cbn [is_holding]. lia.
    + (* ki_q: who is left in the queue is not i *)
      intros j [Hj Hne]%filter_In. rewrite nth_set_k_other; [exact (Hq j Hj)|].
      intros ->. rewrite Nat.eqb_refl in Hne. discriminate.
    + apply NoDup_filter. exact Hnd.
  - (* KTick *)
    constructor; cbn [k_held k_ext k_threads k_queue k_cap]; try assumption.
    + rewrite expire_holding. exact Hh.
    + (* ki_q: the filter keeps those still waiting *)
      intros j [_ Hw]%filter_In. destruct (nth j (expire _ (k_threads k)) KReleased); try discriminate. reflexivity.
    + apply NoDup_filter. exact Hnd.
  - (* KTryAcquire *)
    destruct (k_held k <? k_cap k) eqn:Efree; [|exact Inv].
    constructor; cbn [k_held k_ext k_threads k_queue k_cap with_threads]; try assumption; lia.
  - (* KRelease *) destruct (0 <? k_ext k); [|exact Inv].
    apply give_back_inv; try assumption. lia.
Qed.

Lemma krun_inv cap tr k : KInv cap k -> KInv cap (krun k tr).
Proof. apply (fold_left_inv kstep_do (KInv cap)). intros k' x. apply kstep_inv. Qed.

Theorem bulkhead_never_exceeds cap mw now n tr : 0 <= cap ->
  let k := krun (kinit cap mw now n) tr in holding k + k_ext k <= cap /\ k_held k = holding k + k_ext k.
Proof.
  intros Hc k. destruct (krun_inv cap tr _ (kinit_inv cap mw now n Hc)) as [_ Hh Hcap _ _]. fold k in Hh, Hcap.
  change (holding k) with (cnt is_holding (k_threads k)). lia.
Qed.

Theorem all_permits_back cap mw now n tr : 0 <= cap ->
  let k := krun (kinit cap mw now n) tr in holding k = 0 -> k_ext k = 0 -> k_held k = 0.
Proof. intros Hc k H1 H2. destruct (bulkhead_never_exceeds cap mw now n tr Hc) as [_ H]. fold k in H. lia. Qed.

Theorem free_permit_is_taken k i : kget k i = KIdle -> k_held k < k_cap k -> kget (kstep_do k (KEnter i)) i = KHolding.
Proof.
  intros Hi Hfree. cbn [kstep_do]. rewrite Hi. destruct (k_held k <? k_cap k) eqn:E; [|lia].
  unfold kget. cbn [k_threads with_threads]. apply nth_set_k_same. apply (nth_in_range _ _ _ _ Hi). discriminate.
Qed.

Theorem only_holders_release k i : kget k i <> KHolding -> kstep_do k (KFinish i) = k.
Proof. intros H. cbn [kstep_do]. destruct (kget k i); try reflexivity. contradiction. Qed.
