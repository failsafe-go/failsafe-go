(* Every layer of Model/Exec.v changes the world by a sequence of primitive steps.  [step] is the alphabet of world
   updates, each constructor with what the invariants rely on; every composition and every complete run is a sequence of
   such steps ([compose_steps], [run_steps]), so an invariant of executions is checked on the steps ([steps_inv]).  A
   layer may be entered under such an invariant ([entry]); then one policy around ANY inner layer that keeps it is a
   sequence of steps and runs of that layer ([apply_policy_steps], [tame]).  A relation that reads log and retry ledgers
   only ([log_rel]) contains the steps that log no verdict event and write no ledger it watches; what is left to walk is
   the loop of the retry policy it watches ([retry_loop_inv]). *)
From FS Require Import Model.Exec Spec.Verdict Proofs.ExecProofs Proofs.ExecHedgeProofs.

Definition has_copy (w : world) (c : nat) : Prop := (c < length (w_copies w))%nat.
Definition bg_copies_exist (w : world) : Prop := Forall (fun b => has_copy w (bg_copy b)) (w_bg w).
(* the events whose number the statistics report *)
Definition counted (k : evk) : bool := match k with KRetry | KFnEnd | KHedge => true | _ => false end.
(* a new cancel scope and the execution copy that runs under it, made from copy c (Timeout, hedge attempt) *)
Definition push_copy (w : world) (c : nat) (sc : scope) (q : Z) (e : option (Z * err)) (last : outcome) : world :=
  set_copies (set_scopes w (w_scopes w ++ [sc]) q e)
    (w_copies w ++ [ {| cp_chain := length (w_scopes w) :: cp_chain (get_copy w c); cp_last := last; cp_start := cp_start (get_copy w c) |} ]).
(* InitializeRetry of [retry_loop], between the wait and OnRetry *)
Definition restart (w : world) (c : nat) : world :=
  set_cell (set_copies (set_counters w (w_attempts w + 1) (w_retries w + 1) (w_executions w))
              (upd c (fun cp => {| cp_chain := cp_chain cp; cp_last := cp_last cp; cp_start := w_now w |}) (w_copies w)))
           None.

(* The loop of a retry policy at q, walked once.  [I] holds wherever the loop may return; [F] after a failed attempt from
   which the policy goes on; [P] from the decision to retry until the retry starts. *)
Lemma retry_loop_inv q cfg inner c (I F P : world -> Prop) :
  (forall w, I w -> I (set_oof w)) ->
  (forall w, I w -> I (snd (inner c w))) ->
  (forall w r, I w -> rs_exceeded (get_rstate w q) = false -> I (ev_with_result w c KPolSuccess q r)) ->
  (forall w r, I w -> rs_exceeded (get_rstate w q) = false ->
     I (snd (retry_on_failure cfg q c r w))
     /\ (pr_done (fst (retry_on_failure cfg q c r w)) = false -> F (snd (retry_on_failure cfg q c r w)))) ->
  (forall w o o' d, I w -> F w ->
     I (stamp (emit (set_copy_last w c o) KRetryScheduled q o' d) c) /\ P (stamp (emit (set_copy_last w c o) KRetryScheduled q o' d) c)) ->
  (forall w d, I w -> P w -> I (snd (wait w d (Some c))) /\ P (snd (wait w d (Some c)))) ->
  (forall w o aux, I w -> P w -> I (stamp (emit (restart w c) KRetry q o aux) c)) ->
  forall fuel w, I w -> I (snd (fst (retry_loop fuel cfg q inner c w))).
Proof.
  intros Ho Hin Hs Hf Hd Hw Hr. induction fuel as [|fuel IH]; intros w H0; cbn [retry_loop]; [exact (Ho w H0)|].
  pose proof (Hin w H0) as H1. destruct (inner c w) as [r w1]. cbn [snd] in H1.
  destruct (is_canceled w1 c); [exact H1|]. destruct (rs_exceeded (get_rstate w1 q)) eqn:Ex; [exact H1|].
  destruct (is_failure (r_fpol cfg) (pr_out r)); [|exact (Hs w1 _ H1 Ex)].
  destruct (Hf w1 (with_failure r) H1 Ex) as [H2 F2]. destruct (retry_on_failure cfg q c (with_failure r) w1) as [r2 w2]. cbn [fst snd] in H2, F2.
  destruct (pr_done r2); [exact H2|]. destruct (is_canceled w2 c); [exact H2|].
  set (w3 := set_copy_last w2 c (pr_out r2)). set (d := retry_delay cfg w3). set (w4 := stamp (emit w3 KRetryScheduled q _ d) c).
  destruct (Hd w2 _ _ d H2 (F2 eq_refl) : I w4 /\ P w4) as [H4 P4].
  destruct (Hw w4 d H4 P4) as [H5 P5]. destruct (wait w4 d (Some c)) as [ii w5]. cbn [snd] in H5, P5.
  destruct (is_canceled w5 c); [exact H5|].
  match goal with |- context [retry_loop fuel cfg q inner c ?w9] => assert (H9 : I w9) by (apply (Hr w5); assumption) end.
  apply IH in H9. destruct (retry_loop fuel cfg q inner c _) as [[rr ww] n]. exact H9.
Qed.

Section Steps.
(* [G] is a switch.  Invariants that read a copy when an event is stamped or a scope is pushed (ExecTimes, ExecWF) need
   that copy to exist: they take [G := True], and the steps carry the guards [G -> _], which [entry] (below) lets a
   layer discharge.  The other invariants take [G := False], and nothing is asked.
   [A k q]: a verdict event (Spec/Verdict.v [verdict_kind]) of kind k may be logged for position q.
   [B q]: the retry ledger of position q may be written.
   [Sub]: a run of the layer inside as one step, where that layer is taken as given ([apply_policy_steps],
   [execute_steps]; [steps_sub] spells it out); [no_call] in [compose_steps] and [run_steps]. *)
Context {G : Prop} {A : evk -> nat -> Prop} {B : nat -> Prop} {Sub : world -> world -> Prop}.

(* Which guard serves which invariant: scopes only grow, background attempts keep copy and run number, the run number
   only grows: Wf.  The stamped copy exists, a pushed copy inherits an existing copy's start: Ts.  Each counted event
   moves its counters in the same step: Tr (the counters are wrong in between). *)
Inductive step : world -> world -> Prop :=
  | S_now w t : step w (set_now w (Z.max (w_now w) t))
  | S_oof w : step w (set_oof w)
  | S_cell w x : step w (set_cell w x)
  | S_insts w b l k c : step w (set_insts w b l k c)
  | S_script w s : step w (set_script w s)
  | S_put w q r : B q -> step w (put_rstate w q r)
  | S_scopes w l q e : (length (w_scopes w) <= length l)%nat -> step w (set_scopes w l q e)
  | S_last w c o : step w (set_copy_last w c o)
  | S_push w c sc q e last : (G -> has_copy w c) -> step w (push_copy w c sc q e last)
  (* an event is logged; where its observer is handed a copy, it reads that copy's AttemptStartTime at this instant *)
  | S_emit w k q o aux : verdict_kind k = false -> counted k = false -> step w (emit w k q o aux)
  | S_semit w c k q o aux : (G -> has_copy w c) -> (verdict_kind k = true -> A k q) -> counted k = false ->
      step w (stamp (emit w k q o aux) c)
  | S_fn_end w c q o : (G -> has_copy w c) ->
      step w (stamp (emit (set_counters w (w_attempts w) (w_retries w) (w_executions w + 1)) KFnEnd q o 0) c)
  | S_retry w c q o aux : (G -> has_copy w c) -> A KRetry q -> step w (stamp (emit (restart w c) KRetry q o aux) c)
  | S_hedge w c q o : (G -> has_copy w c) ->
      step w (stamp (emit (set_hedge (set_counters w (w_attempts w + 1) (w_retries w) (w_executions w))
                                     (w_hedges w + 1) (w_bg w) (w_hs w)) KHedge q o 0) c)
  | S_bg w bg :
      (forall b', In b' bg -> exists b, In b (w_bg w) /\ bg_copy b' = bg_copy b /\ bg_grp b' = bg_grp b) ->
      step w (set_hedge w (w_hedges w) bg (w_hs w))
  | S_bg_new w b : (G -> has_copy w (bg_copy b)) -> bg_grp b = hs_grp (w_hs w) ->
      step w (set_hedge w (w_hedges w) (b :: w_bg w) (w_hs w))
  | S_hs w hs : (hs_grp (w_hs w) <= hs_grp hs)%nat -> step w (set_hedge w (w_hedges w) (w_bg w) hs)
  (* last, so that [constructor] in [steps_sub] tries it last; the guards let [steps_copies] pass through it *)
  | S_call w w' : Sub w w' ->
      (G -> (length (w_copies w) <= length (w_copies w'))%nat /\ (bg_copies_exist w -> bg_copies_exist w')) -> step w w'.

Inductive steps : world -> world -> Prop :=
  | steps_refl w : steps w w
  | steps_cons a b c : step a b -> steps b c -> steps a c.

Lemma steps_one {a b} : step a b -> steps a b.
Proof. intros H. eapply steps_cons; [exact H|apply steps_refl]. Qed.

Lemma steps_trans a b c : steps a b -> steps b c -> steps a c.
Proof. induction 1; [auto|]. intros H'. eapply steps_cons; [eassumption|auto]. Qed.

Lemma steps_rel (R : world -> world -> Prop) :
  (forall w, R w w) -> (forall a b c, R a b -> R b c -> R a c) -> (forall w w', step w w' -> R w w') ->
  forall {w w'}, steps w w' -> R w w'.
Proof. intros Hr Ht Hs w w'. induction 1; [apply Hr|]. eapply Ht; [apply Hs; eassumption|assumption]. Qed.

Lemma steps_inv (I : world -> Prop) : (forall w w', step w w' -> I w -> I w') -> forall {w w'}, steps w w' -> I w -> I w'.
Proof. intros Hs. apply (steps_rel (fun w w' => I w -> I w')); auto. Qed.

Lemma step_copies {w w'} : G -> step w w' -> (length (w_copies w) <= length (w_copies w'))%nat.
Proof.
  intros g H. destruct H as [| | | | | | | | | | | | | | | | |a b _ H]; [..|exact (proj1 (H g))]; rewrite ?(stamp_same w_copies) by reflexivity;
    cbn [w_copies set_now set_oof set_cell set_insts set_script put_rstate set_retry set_scopes set_copies set_copy_last emit
         set_trace set_counters set_hedge push_copy restart]; rewrite ?upd_length, ?app_length; lia.
Qed.

Lemma steps_copies {w w'} : G -> steps w w' -> (length (w_copies w) <= length (w_copies w'))%nat.
Proof. intros g. induction 1 as [|a b d H _ IH]; [lia|]. pose proof (step_copies g H). lia. Qed.

Lemma step_bg_copies {w w'} : G -> step w w' -> bg_copies_exist w -> bg_copies_exist w'.
Proof.
  intros g H Hb. pose proof (step_copies g H) as L. unfold bg_copies_exist, has_copy in *.
  assert (Hk : w_bg w' = w_bg w -> Forall (fun b => (bg_copy b < length (w_copies w'))%nat) (w_bg w'))
    by (intros ->; eapply Forall_impl; [|exact Hb]; cbn beta; intros; lia).
  destruct H; try (apply Hk; rewrite ?(stamp_same w_bg) by reflexivity; reflexivity).
  - (* S_bg *) apply Forall_forall. intros b' Hb'. destruct (H b' Hb') as (b & Hin & E & _). rewrite Forall_forall in Hb.
    rewrite E. exact (Hb b Hin).
  - (* S_bg_new *) constructor; [exact (H g)|exact Hb].
  - (* S_call *) exact (proj2 (H0 g) Hb).
Qed.

Lemma steps_bg_copies {w w'} : G -> steps w w' -> bg_copies_exist w -> bg_copies_exist w'.
Proof. intros g. apply steps_inv. intros a b. exact (step_bg_copies g). Qed.

(* What a layer may rely on when entered with copy c: an invariant [J] that the steps keep, and (under [G]) that copy c
   exists, and the copies of the background attempts: [advance] may let any of them return, which stamps an event with
   that copy. *)
Variable J : world -> Prop.
Hypothesis step_J : forall w w', step w w' -> J w -> J w'.

Definition entry (c : nat) (w : world) : Prop := (G -> has_copy w c /\ bg_copies_exist w) /\ J w.

Lemma entry_steps c w w' : steps w w' -> entry c w -> entry c w'.
Proof.
  intros H [Hi Hj]. split; [|exact (steps_inv J step_J H Hj)].
  intros g. destruct (Hi g) as [Hc Hb]. pose proof (steps_copies g H). unfold has_copy in *.
  split; [lia|exact (steps_bg_copies g H Hb)].
Qed.

(* The lemmas below have the form [steps w0 w -> steps w0 (op w)], so that a goal about [op3 (op2 (op1 w0))] is taken
   apart from the outside by [apply]. *)
Lemma st_step w0 w w' : step w w' -> steps w0 w -> steps w0 w'.
Proof. intros H Hs. eapply steps_trans; [exact Hs|apply steps_one, H]. Qed.

Lemma has_copy_later c w0 w : entry c w0 -> steps w0 w -> G -> has_copy w c.
Proof. intros Hi Hs g. exact (proj1 (proj1 (entry_steps c _ _ Hs Hi) g)). Qed.

Lemma st_semit c w0 w k q o aux : (verdict_kind k = true -> A k q) -> counted k = false -> entry c w0 -> steps w0 w ->
  steps w0 (stamp (emit w k q o aux) c).
Proof. intros Ha Hk Hi Hs. apply (st_step w0 w); [|exact Hs]. apply S_semit; [exact (has_copy_later c w0 w Hi Hs)|exact Ha|exact Hk]. Qed.

Lemma st_ev c w0 w k q r : (verdict_kind k = true -> A k q) -> counted k = false -> entry c w0 -> steps w0 w ->
  steps w0 (ev_with_result w c k q r).
Proof. apply st_semit. Qed.

Lemma st_plain w0 w k q o aux : verdict_kind k = false -> counted k = false -> steps w0 w -> steps w0 (emit w k q o aux).
Proof. intros Hv Hk. apply st_step, S_emit; assumption. Qed.

Lemma st_splain c w0 w k q o aux : verdict_kind k = false -> counted k = false -> entry c w0 -> steps w0 w ->
  steps w0 (stamp (emit w k q o aux) c).
Proof. intros Hv. apply st_semit. rewrite Hv. discriminate. Qed.

Lemma st_mark_done w0 w s e : steps w0 w -> steps w0 (mark_done w s e).
Proof.
  intros Hs. unfold mark_done. destruct (sc_done _); [exact Hs|]. apply (st_step w0 w); [|exact Hs].
  apply S_scopes. rewrite upd_length. lia.
Qed.

Lemma st_copy_last w0 w c o : steps w0 w -> steps w0 (set_copy_last w c o).
Proof. apply st_step, S_last. Qed.

Lemma st_fire_timeout w0 w s : steps w0 w -> steps w0 (fire_timeout w s).
Proof.
  intros Hs. unfold fire_timeout.
  match goal with |- context [emit ?w1 KTimeoutExceeded ?q ?o ?a] => set (w2 := emit w1 KTimeoutExceeded q o a);
    assert (H2 : steps w0 w2) by (apply st_plain; try reflexivity; apply (st_step w0 w); [apply S_scopes; rewrite upd_length; lia|exact Hs]) end.
  destruct (copy_err w2 _); [exact H2|]. apply st_mark_done, st_copy_last. apply (st_step w0 w2); [apply S_cell|exact H2].
Qed.

Lemma st_fire_ext w0 w e : steps w0 w -> steps w0 (fire_ext w e).
Proof.
  intros Hs. unfold fire_ext.
  assert (H0 : steps w0 (set_scopes w (w_scopes w) (w_seq w) None)) by (apply (st_step w0 w); [apply S_scopes; lia|exact Hs]).
  destruct e; try (apply st_mark_done; exact H0).
  destruct (copy_err _ 0%nat); [exact H0|]. apply st_mark_done, st_copy_last. eapply st_step; [apply S_cell|exact H0].
Qed.

Lemma st_finish_bg w0 w b : (G -> bg_copies_exist w) -> In b (w_bg w) -> steps w0 w -> steps w0 (finish_bg w b).
Proof.
  intros Hb Hin Hs. unfold finish_bg.
  match goal with |- context [stamp ?w2 (bg_copy b)] => assert (H3 : steps w0 (stamp w2 (bg_copy b))) end.
  { eapply st_step; [apply S_fn_end|eapply st_step; [apply S_bg|exact Hs]].
    - intros g. specialize (Hb g). unfold bg_copies_exist in Hb. rewrite Forall_forall in Hb. exact (Hb b Hin).
    - intros b' Hb'. unfold bg_remove in Hb'. apply filter_In in Hb'. exists b'. tauto. }
  match goal with |- context [if ?c then _ else _] => destruct c end; [|exact H3].
  eapply st_step; [apply S_hs|exact H3]. cbn [hs_grp]. lia.
Qed.

Lemma st_refresh_bg w0 w : steps w0 w -> steps w0 (refresh_bg w).
Proof.
  intros Hs. unfold refresh_bg.
  match goal with |- context [set_hedge w (w_hedges w) ?bg' (w_hs w)] => assert (H1 : steps w0 (set_hedge w (w_hedges w) bg' (w_hs w))) end.
  { eapply st_step; [apply S_bg|exact Hs]. intros b' Hb'. apply in_map_iff in Hb'. destruct Hb' as (b & <- & Hin). exists b.
    split; [exact Hin|]. destruct (bg_coop b) as [[o lag]|]; [|auto]. match goal with |- context [if ?c then _ else _] => destruct c end; auto. }
  match goal with |- context [if ?c then _ else _] => destruct c end; [eapply st_step; [apply S_oof|]|]; exact H1.
Qed.

Lemma advance_steps fuel w t intr acc : (G -> bg_copies_exist w) -> steps w (snd (advance fuel w t intr acc)).
Proof.
  revert w t intr acc. apply (advance_rel (fun w w' => (G -> bg_copies_exist w) -> steps w w')).
  - intros w _. apply steps_refl.
  - intros a b c H1 H2 Ha. specialize (H1 Ha). eapply steps_trans; [exact H1|]. apply H2. intros g.
    exact (steps_bg_copies g H1 (Ha g)).
  - intros w t _. apply steps_one, S_now.
  - intros w _. apply steps_one, S_oof.
  - intros w b Hin Hb. apply st_finish_bg; [exact Hb|exact Hin|apply steps_refl].
  - intros w t s _ _. apply st_fire_timeout, steps_refl.
  - intros w e _. apply st_fire_ext, steps_refl.
  - intros w _. apply st_refresh_bg, steps_refl.
Qed.

Lemma st_advance c fuel w0 w t intr acc : entry c w0 -> steps w0 w -> steps w0 (snd (advance fuel w t intr acc)).
Proof. intros Hi Hs. eapply steps_trans; [exact Hs|]. apply advance_steps. intros g. exact (proj2 (proj1 (entry_steps c _ _ Hs Hi) g)). Qed.

Lemma st_wait c w0 w d intr : entry c w0 -> steps w0 w -> steps w0 (snd (wait w d intr)).
Proof. apply st_advance. Qed.

Lemma st_pause c w0 w d : entry c w0 -> steps w0 w -> steps w0 (pause w d).
Proof. intros Hi Hs. unfold pause. destruct (0 <? d); [apply (st_wait c); assumption|exact Hs]. Qed.

Lemma st_drain c w0 w : entry c w0 -> steps w0 w -> steps w0 (drain w).
Proof.
  intros Hi Hs. unfold drain. destruct (w_bg w); [exact Hs|].
  apply (st_advance c); [exact Hi|]. eapply st_step; [apply S_scopes; lia|exact Hs].
Qed.

Definition layer_steps (l : layer) : Prop := forall c w, entry c w -> steps w (snd (l c w)).

Lemma st_layer l c w0 w : layer_steps l -> entry c w0 -> steps w0 w -> steps w0 (snd (l c w)).
Proof. intros Hl Hi Hs. eapply steps_trans; [exact Hs|]. apply Hl. exact (entry_steps c _ _ Hs Hi). Qed.

Lemma fn_layer_steps q : layer_steps (fn_layer q).
Proof.
  intros c w Hi. unfold fn_layer.
  match goal with |- context [stamp (emit ?w0 KFnStart q ?o 0) c] => set (w1 := stamp (emit w0 KFnStart q o 0) c);
    assert (H1 : steps w w1) by (apply (st_splain c); auto; apply steps_one, S_script) end.
  assert (Hfin : forall o w2, steps w w2 -> steps w (stamp (emit (set_counters w2 (w_attempts w2) (w_retries w2) (w_executions w2 + 1)) KFnEnd q o 0) c))
    by (intros o w2 H2; eapply st_step; [apply S_fn_end, (has_copy_later c w w2 Hi H2)|exact H2]).
  destruct (fs_coop _) as [co|].
  - pose proof (st_wait c w w1 (fs_dur (next_step w)) (Some c) Hi H1) as Sw. destruct (wait w1 _ (Some c)) as [[|] w']; cbn [snd] in Sw.
    + pose proof (st_wait c w w' (fs_lag (next_step w)) None Hi Sw) as Sw2. destruct (wait w' _ None) as [jj w'']. apply Hfin, Sw2.
    + apply Hfin, Sw.
  - pose proof (st_wait c w w1 (fs_dur (next_step w)) None Hi H1) as Sw. destruct (wait w1 _ None) as [ii w']. apply Hfin, Sw.
Qed.

Lemma st_emit_bevents w0 q evs : forall w, steps w0 w -> steps w0 (emit_bevents w q evs).
Proof.
  unfold emit_bevents. induction evs as [|e evs IH]; intros w Hs; cbn [fold_left]; [exact Hs|].
  apply IH, st_plain; try reflexivity; exact Hs.
Qed.

Lemma breaker_layer_steps q inst inner : A KPolFailure q -> A KPolSuccess q -> layer_steps inner -> layer_steps (breaker_layer q inst inner).
Proof.
  intros Hpf Hps Hl c w Hi. unfold breaker_layer, set_breaker.
  destruct (nth inst (w_breakers w) _) as [cfg s]. destruct (try_acquire conc_impl cfg s (w_now w)) as [[ok s1] evs].
  match goal with |- context [emit_bevents ?x q evs] => assert (S1 : steps w (emit_bevents x q evs))
    by (apply st_emit_bevents, steps_one, S_insts); set (w1 := emit_bevents x q evs) in * end.
  destruct ok; cbn [negb]; [|exact S1].
  pose proof (st_layer inner c w w1 Hl Hi S1) as S2. destruct (inner c w1) as [r w2]. cbn [snd] in S2.
  destruct (nth inst (w_breakers w2) _) as [cfg2 s2].
  destruct (is_failure (b_fpol cfg) (pr_out r)).
  - destruct (record conc_impl cfg s2 _ false _) as [s3 evs']. cbn [snd].
    apply st_emit_bevents. eapply st_step; [apply S_insts|]. apply (st_ev c); auto.
  - destruct (record conc_impl cfg s2 _ true _) as [s3 evs']. cbn [snd].
    apply st_emit_bevents. eapply st_step; [apply S_insts|]. apply (st_ev c); auto.
Qed.

Lemma limiter_layer_steps q inst mw inner : layer_steps inner -> layer_steps (limiter_layer q inst mw inner).
Proof.
  intros Hl c w Hi. unfold limiter_layer, limiter_layer_gen.
  destruct (nth inst (w_limiters w) _) as [[cfg base] s]. destruct (lim_acquire cfg s (w_now w - base) 1 mw) as [wt s'].
  set (w1 := set_insts w _ _ _ _). assert (S1 : steps w w1) by apply steps_one, S_insts.
  destruct (wt =? -1); [cbn [snd]; apply (st_splain c); auto|].
  pose proof (st_wait c w w1 wt (Some c) Hi S1) as Sw. destruct (wait w1 wt (Some c)) as [[|] w2]; cbn [snd] in *; [exact Sw|].
  apply (st_layer inner c); assumption.
Qed.

Lemma bulkhead_layer_steps q inst mw inner : layer_steps inner -> layer_steps (bulkhead_layer q inst mw inner).
Proof.
  intros Hl c w Hi. unfold bulkhead_layer.
  destruct (nth inst (w_bulkheads w) (0, 0)) as [cap held].
  destruct (copy_err w c); [apply steps_refl|].
  destruct (held <? cap).
  - match goal with |- context [inner c ?w1] => pose proof (st_layer inner c w w1 Hl Hi (steps_one (S_insts _ _ _ _ _))) as S2;
      destruct (inner c w1) as [r w2] end.
    cbn [snd] in S2. destruct (nth inst (w_bulkheads w2) (0, 0)) as [cap2 held2]. cbn [snd]. eapply st_step; [apply S_insts|exact S2].
  - destruct (mw =? 0); [cbn [snd]; apply (st_splain c); auto; apply steps_refl|].
    pose proof (st_wait c w w mw (Some c) Hi (steps_refl w)) as Sw. destruct (wait w mw (Some c)) as [[|] w1]; cbn [snd] in *; [exact Sw|].
    apply (st_splain c); auto.
Qed.

Lemma entry_push c w sc q e last : entry c w -> entry (length (w_copies w)) (push_copy w c sc q e last).
Proof.
  intros [Hi Hj]. split; [|exact (step_J _ _ (S_push w c sc q e last (fun g => proj1 (Hi g))) Hj)].
  intros g. destruct (Hi g) as [Hc Hb]. unfold bg_copies_exist, has_copy, push_copy in *. cbn [w_copies w_bg set_copies set_scopes].
  rewrite app_length. cbn [length]. split; [lia|]. eapply Forall_impl; [|exact Hb]. cbn beta. intros b Hb'. lia.
Qed.

Lemma timeout_layer_steps q limit inner : layer_steps inner -> layer_steps (timeout_layer q limit inner).
Proof.
  intros Hl c w Hi. unfold timeout_layer.
  match goal with |- context [inner ?c' ?w2] => assert (S2 : steps w w2) by (apply steps_one; exact (S_push w c _ _ _ _ (fun g => proj1 (proj1 Hi g))));
    pose proof (Hl c' w2 (entry_push c w _ _ _ _ Hi)) as S3; destruct (inner c' w2) as [r w3] end.
  cbn [snd] in *. eapply st_step; [apply S_scopes; rewrite upd_length; lia|]. eapply steps_trans; eassumption.
Qed.

Lemma fallback_layer_steps q cfg inner : A KPolFailure q -> A KPolSuccess q -> layer_steps inner -> layer_steps (fallback_layer q cfg inner).
Proof.
  intros Hpf Hps Hl c w Hi. unfold fallback_layer.
  pose proof (Hl c w Hi) as S1. destruct (inner c w) as [r w1]. cbn [snd] in S1.
  destruct (is_failure (fb_fpol cfg) (pr_out r)).
  - set (w2 := pause (ev_with_result w1 c KPolFailure q _) _).
    assert (S2 : steps w w2) by (apply (st_pause c), (st_ev c); auto).
    cbn [pr_succ with_failure]. destruct (is_canceled w2 c); [exact S2|].
    pose proof (st_pause c w w2 (fb_dur cfg) Hi S2) as S3. destruct (is_canceled (pause w2 _) c); [exact S3|].
    cbn [snd]. apply st_plain; auto.
  - cbn [pr_succ with_done snd]. apply (st_ev c); auto.
Qed.

Lemma cache_layer_steps q inst cfg inner : layer_steps inner -> layer_steps (cache_layer q inst cfg inner).
Proof.
  intros Hl c w Hi. unfold cache_layer.
  destruct (if cache_key w cfg =? 0 then None else _) as [v|]; [cbn [snd]; apply st_plain; auto; apply steps_refl|].
  match goal with |- context [inner c ?w1] => pose proof (st_layer inner c w w1 Hl Hi) as S2; destruct (inner c w1) as [r w2] end.
  cbn [snd] in S2. specialize (S2 ltac:(apply (st_splain c); auto; apply steps_refl)).
  destruct (_ && _); cbn [snd]; [|exact S2].
  apply (st_splain c); auto. eapply st_step; [apply S_insts|exact S2].
Qed.

Lemma st_retry_on_failure c w0 w q cfg r : B q -> A KPolFailure q -> A KAbort q -> A KRetriesExceeded q ->
  entry c w0 -> steps w0 w -> steps w0 (snd (retry_on_failure cfg q c r w)).
Proof.
  intros Hb Hpf Hab Hex Hi Hs. rewrite retry_on_failure_eq. cbv zeta. cbn [snd].
  match goal with |- context [put_rstate ?w0' q ?rs] => assert (S1 : steps w0 (put_rstate w0' q rs))
    by (eapply st_step; [apply S_put, Hb|]; apply (st_pause c), (st_ev c); auto) end.
  destruct (_ && negb _), (is_abortable _ _); repeat (apply (st_ev c); auto); exact S1.
Qed.

Lemma retry_loop_steps q cfg inner : B q -> (forall k, verdict_kind k = true -> A k q) -> layer_steps inner ->
  forall fuel c w, entry c w -> steps w (snd (fst (retry_loop fuel cfg q inner c w))).
Proof.
  intros Hb Ha Hl fuel c w0 Hi.
  apply (retry_loop_inv q cfg inner c (steps w0) (fun _ => True) (fun _ => True)); [..|apply steps_refl].
  - intros w. apply st_step, S_oof.
  - intros w. apply (st_layer inner c); assumption.
  - intros w r H _. apply (st_ev c); auto.
  - intros w r H _. split; [apply (st_retry_on_failure c)|]; auto.
  - intros w o o' d H _. split; [apply (st_semit c), st_copy_last|]; auto.
  - intros w d H _. split; [apply (st_wait c)|]; auto.
  - intros w o aux H _. eapply st_step; [exact (S_retry w c q _ _ (has_copy_later c w0 w Hi H) (Ha KRetry eq_refl))|exact H].
Qed.

Lemma st_cancel_others w0 started : forall w i winner, steps w0 w -> steps w0 (cancel_others w started i winner).
Proof.
  induction started as [|cs rest IH]; intros w i winner Hs; cbn [cancel_others]; [exact Hs|].
  apply IH. destruct (Nat.eqb i winner); [exact Hs|]. unfold cancel_copy. destruct (copy_err w (fst cs)); [exact Hs|].
  apply st_mark_done. eapply st_step; [apply S_cell|exact Hs].
Qed.

Lemma hedge_start_steps q total c k w : entry c w -> steps w (hedge_start q total c k w).
Proof.
  intros Hi. rewrite hedge_start_stages.
  pose proof (entry_push c w _ (w_seq w) (w_ext w) (cp_last (get_copy w c)) Hi : entry (length (w_copies w)) (push_attempt q c w)) as Hn.
  apply (steps_cons _ (push_attempt q c w)); [exact (S_push w c _ _ _ _ (fun g => proj1 (proj1 Hi g)))|].
  set (w2 := push_attempt q c w) in *. set (c' := length (w_copies w)) in *.
  assert (S3 : steps w2 (match k with O => w2 | S _ => count_hedge q c' w2 end))
    by (destruct k; [apply steps_refl|apply steps_one, S_hedge; intros g; exact (proj1 (proj1 Hn g))]).
  apply st_refresh_bg. unfold launch_attempt. cbv zeta.
  match goal with |- context [set_hedge ?w5' _ _ _] => assert (S5 : steps w2 w5')
    by (apply (st_splain c'); auto; eapply st_step; [apply S_script|exact S3]) end.
  eapply st_step; [apply S_bg_new; [exact (has_copy_later c' w2 _ Hn S5)|reflexivity]|exact S5].
Qed.

Lemma hloop_steps cfg q total c k st w r w' ts : hloop cfg q total c k st w r w' ts -> entry c w -> steps w w'.
Proof.
  assert (Ht : forall k w w7, hedge_turn q total c k w w7 -> entry c w -> steps w w7)
    by (intros k0 w0 w7 (f & t & ->) Hi; apply (st_advance c), hedge_start_steps; assumption).
  induction 1 as [k st w|k st w w7 cr H7 _|k st w w7 idx out H7 _ _|k st w w7 H7|k st w w7 r w' ts H7 _ _ _ _ _ IH]; intros Hi;
    try specialize (Ht _ _ _ H7 Hi).
  - apply steps_one, S_oof.
  - exact Ht.
  - apply st_refresh_bg, st_cancel_others. eapply st_step; [apply S_hs|exact Ht]. cbn [hs_grp]. lia.
  - eapply st_step; [apply S_oof|exact Ht].
  - eapply steps_trans; [exact Ht|apply IH, (entry_steps c _ _ Ht Hi)].
Qed.

Lemma hedge_layer_steps q total cfg : layer_steps (hedge_layer q total cfg).
Proof.
  intros c w Hi. destruct (hedge_layer_hloop q total cfg c w) as [ts H].
  assert (S0 : steps w (run_entry cfg w)) by (apply steps_one, S_hs; cbn [hs_grp]; lia).
  exact (steps_trans _ _ _ S0 (hloop_steps _ _ _ _ _ _ _ _ _ _ H (entry_steps c _ _ S0 Hi))).
Qed.
End Steps.

Arguments step : clear implicits.
Arguments steps : clear implicits.
Arguments entry : clear implicits.
Arguments layer_steps : clear implicits.

(* a coarser alphabet; in particular the runs of the layer inside may be spelled out *)
Lemma steps_sub {G} {A A' : evk -> nat -> Prop} {B B' : nat -> Prop} {Sub Sub' : world -> world -> Prop} :
  (forall k q, A k q -> A' k q) -> (forall q, B q -> B' q) -> (forall w w', Sub w w' -> steps G A' B' Sub' w w') ->
  forall {w w'}, steps G A B Sub w w' -> steps G A' B' Sub' w w'.
Proof.
  intros HA HB HS w w'. induction 1 as [|a b c H _ IH]; [apply steps_refl|]. eapply steps_trans; [|exact IH].
  (* S_call is spelled out by HS; every other step is the same constructor of the coarser alphabet, its guards by HA, HB *)
  destruct H; [..|apply HS; assumption]; apply steps_one; constructor; solve [auto].
Qed.

(* the verdict events a policy logs under its own position; only a retry policy keeps a ledger *)
Definition own_kind (p : policy) (k : evk) : bool :=
  match p, k with
  | PRetry _, _ => verdict_kind k
  | (PBreaker _ | PFallback _), (KPolFailure | KPolSuccess) => true
  | _, _ => false
  end.
Definition emits (start : nat) (stack : list policy) (k : evk) (q : nat) : Prop :=
  exists p, (start <= q)%nat /\ nth_error stack (q - start) = Some p /\ own_kind p k = true.
Definition writes (start : nat) (stack : list policy) (q : nat) : Prop :=
  exists cfg, (start <= q)%nat /\ nth_error stack (q - start) = Some (PRetry cfg).
Definition no_event (k : evk) (q : nat) : Prop := False.
Definition no_write (q : nat) : Prop := False.
Definition no_call (w w' : world) : Prop := False.

Lemma compose_ind (Q : layer -> Prop) fuel total stack : forall start,
  Q (fn_layer total) ->
  (forall i p inner, nth_error stack i = Some p -> Q inner -> Q (apply_policy fuel (start + i) total p inner)) ->
  Q (compose fuel start stack total).
Proof.
  induction stack as [|p rest IH]; intros start Hfn Hp; cbn [compose]; [exact Hfn|].
  rewrite <- (Nat.add_0_r start) at 1. apply (Hp 0%nat p _ eq_refl), IH; [exact Hfn|].
  intros i p' inner. rewrite Nat.add_succ_comm. apply (Hp (S i)).
Qed.

Lemma own_kind_other p k : (forall rc, p <> PRetry rc) -> own_kind p k = true -> k = KPolFailure \/ k = KPolSuccess.
Proof. intros Hp. destruct p; try destruct (Hp _ eq_refl); destruct k; cbn; intros; try discriminate; auto. Qed.

Definition no_inv (w : world) : Prop := True.
Lemma no_inv_kept {G A B Sub} w w' : step G A B Sub w w' -> no_inv w -> no_inv w'.
Proof. intros _ _. exact I. Qed.

Lemma step_cases {G A B Sub w w'} : step G A B Sub w w' -> Sub w w' \/ step G A B no_call w w'.
Proof. intros H. destruct H; [right; constructor; solve [auto]..|left; assumption]. Qed.

(* the runs of a layer, for [Sub] *)
Definition runs (G : Prop) (J : world -> Prop) (l : layer) (w w' : world) : Prop := exists c, entry G J c w /\ w' = snd (l c w).
(* what [S_call] and [entry] ask of them *)
Definition tame (G : Prop) (J : world -> Prop) (l : layer) : Prop :=
  forall c w, entry G J c w ->
    J (snd (l c w)) /\ (G -> (length (w_copies w) <= length (w_copies (snd (l c w))))%nat
                              /\ (bg_copies_exist w -> bg_copies_exist (snd (l c w)))).

Section Stack.
Variables (G : Prop) (J : world -> Prop).
Hypothesis HJ : forall A B w w', step G A B no_call w w' -> J w -> J w'.

Lemma runs_keep A B inner : tame G J inner -> forall w w', step G A B (runs G J inner) w w' -> J w -> J w'.
Proof. intros Ht w w' H Hj. destruct (step_cases H) as [(c & Hi & ->)|H']; [exact (proj1 (Ht c w Hi))|exact (HJ _ _ _ _ H' Hj)]. Qed.

Lemma layer_steps_tame A B l : layer_steps G A B no_call J l -> tame G J l.
Proof.
  intros Hl c w Hi. pose proof (Hl c w Hi) as Hs. split; [exact (steps_inv J (HJ A B) Hs (proj2 Hi))|].
  intros g. split; [exact (steps_copies g Hs)|exact (steps_bg_copies g Hs)].
Qed.

Lemma apply_policy_steps fuel q total p (inner : layer) : tame G J inner ->
  layer_steps G (fun k q' => q' = q /\ own_kind p k = true) (fun q' => q' = q /\ exists cfg, p = PRetry cfg) (runs G J inner) J
              (apply_policy fuel q total p inner).
Proof.
  intros Hin. pose proof (runs_keep (fun k q' => q' = q /\ own_kind p k = true) (fun q' => q' = q /\ exists cfg, p = PRetry cfg) inner Hin) as HJr.
  assert (Hl : layer_steps G (fun k q' => q' = q /\ own_kind p k = true) (fun q' => q' = q /\ exists cfg, p = PRetry cfg) (runs G J inner) J inner)
    by (intros c w Hi; apply steps_one, S_call; [exists c; auto|intros g; apply (Hin c w Hi), g]).
  destruct p as [rc|bi|li lmw|ki kmw|lim|fc|ci cc|hc]; cbn [apply_policy].
  - intros c w. apply (retry_loop_steps J HJr); eauto.
  - apply (breaker_layer_steps J HJr); auto.
  - apply (limiter_layer_steps J HJr); auto.
  - apply (bulkhead_layer_steps J HJr); auto.
  - apply (timeout_layer_steps J HJr); auto.
  - apply (fallback_layer_steps J HJr); auto.
  - apply (cache_layer_steps J HJr); auto.
  - apply (hedge_layer_steps J HJr); auto.
Qed.

End Stack.

(* Compositions and complete runs, with no invariant asked of the worlds (one kept by the steps follows by [steps_inv]).
   The induction hypothesis spells out the runs of the layer inside, once the alphabet of the policy at position
   start + i is widened to that of the whole stack ([steps_sub]). *)
Theorem compose_steps G fuel stack start total :
  layer_steps G (emits start stack) (writes start stack) no_call no_inv (compose fuel start stack total).
Proof.
  apply compose_ind; [apply (fn_layer_steps no_inv no_inv_kept)|]. intros i p inner Hi IH c w Hw.
  assert (Hq : (start + i - start)%nat = i) by lia.
  eapply steps_sub; [..|apply (apply_policy_steps G no_inv (fun _ _ => no_inv_kept) fuel (start + i) total p);
                         [exact (layer_steps_tame G no_inv (fun _ _ => no_inv_kept) _ _ _ IH)|exact Hw]].
  - intros k q [-> H]. exists p. rewrite Hq. split; [lia|auto].
  - intros q [-> [cfg ->]]. exists cfg. rewrite Hq. split; [lia|exact Hi].
  - intros a b (c' & Hi' & ->). apply IH, Hi'.
Qed.

(* A complete run, from the initial world to what is left when the last background attempt has returned.  It starts at
   [fresh_world0]: [fresh_world] may already have cancelled the caller's context, which is a step like the others. *)
Lemma fresh_world_steps G A B Sub now ext key b l k c script :
  steps G A B Sub (fresh_world0 now ext key b l k c script) (fresh_world now ext key b l k c script).
Proof.
  unfold fresh_world. destruct ext as [[t e]|]; [|apply steps_refl]. destruct (t <=? now); [|apply steps_refl].
  apply st_fire_ext, steps_refl.
Qed.

Lemma execute_steps G fuel stack now ext key b l k c script : tame G no_inv (compose fuel 0 stack (length stack)) ->
  steps G no_event no_write (runs G no_inv (compose fuel 0 stack (length stack))) (fresh_world0 now ext key b l k c script)
        (drain (snd (execute fuel stack (fresh_world now ext key b l k c script)))).
Proof.
  intros Ht. set (w00 := fresh_world0 now ext key b l k c script).
  assert (I00 : entry G no_inv 0 w00) by (split; [intros _; split; [unfold has_copy; cbn; lia|constructor]|exact I]).
  pose proof (fresh_world_steps G no_event no_write (runs G no_inv (compose fuel 0 stack (length stack))) now ext key b l k c script) as S0.
  fold w00 in S0. set (w0 := fresh_world now ext key b l k c script) in *.
  assert (S1 : steps G no_event no_write (runs G no_inv (compose fuel 0 stack (length stack))) w00 (snd (compose fuel 0 stack (length stack) 0%nat w0))).
  { pose proof (entry_steps no_inv no_inv_kept 0%nat _ _ S0 I00) as I0. eapply st_step; [|exact S0]. apply S_call; [exists 0%nat; auto|intros g; apply (Ht _ _ I0), g]. }
  unfold execute. destruct (compose fuel 0 stack (length stack) 0%nat w0) as [r w1]. cbn [snd] in *.
  match goal with |- steps _ _ _ _ _ (drain ?w3) => assert (S3 : steps G no_event no_write (runs G no_inv (compose fuel 0 stack (length stack))) w00 w3)
    by (apply st_plain; try reflexivity; destruct (pr_all r); apply st_plain; try reflexivity; exact S1) end.
  exact (st_drain no_inv no_inv_kept 0%nat _ _ I00 S3).
Qed.

Theorem run_steps G fuel stack now ext key b l k c script :
  steps G (emits 0 stack) (writes 0 stack) no_call (fresh_world0 now ext key b l k c script)
        (drain (snd (execute fuel stack (fresh_world now ext key b l k c script)))).
Proof.
  pose proof (compose_steps G fuel stack 0 (length stack)) as Hc.
  apply (steps_sub (A := no_event) (B := no_write) (Sub := runs G no_inv (compose fuel 0 stack (length stack))));
    [intros ? ? []|intros ? []| |apply execute_steps, (layer_steps_tame G no_inv (fun _ _ => no_inv_kept) _ _ _ Hc)].
  intros a d (c' & Hi & ->). apply Hc, Hi.
Qed.

(* For an invariant J kept by the steps that says the copies of the background attempts exist: a layer entered with an
   existing copy keeps J and loses no copy.  One policy around ANY inner layer that does, does; hence every composition. *)
Section Keeps.
Variable J : world -> Prop.
Hypothesis HJ : forall A B w w', step True A B no_call w w' -> J w -> J w'.
Hypothesis J_bg : forall w, J w -> bg_copies_exist w.

(* [pres] of ExecTimes.v and ExecWF.v with the invariant left open *)
Definition keeps (l : layer) : Prop :=
  forall c w, has_copy w c -> J w -> J (snd (l c w)) /\ (length (w_copies w) <= length (w_copies (snd (l c w))))%nat.

Lemma layer_steps_keeps A B l : layer_steps True A B no_call J l -> keeps l.
Proof.
  intros Hl c w Hc Hw. pose proof (Hl c w (conj (fun _ => conj Hc (J_bg w Hw)) Hw)) as Hs.
  split; [exact (steps_inv J (HJ A B) Hs Hw)|exact (steps_copies I Hs)].
Qed.

Lemma apply_policy_keeps fuel q total p inner : keeps inner -> keeps (apply_policy fuel q total p inner).
Proof.
  intros Hin c w Hc Hw.
  assert (Ht : tame True J inner).
  { intros c' w' [Hi Hj]. destruct (Hin c' w' (proj1 (Hi I)) Hj) as [T L].
    split; [exact T|intros _; split; [exact L|intros _; exact (J_bg _ T)]]. }
  pose proof (apply_policy_steps True J HJ fuel q total p inner Ht c w (conj (fun _ => conj Hc (J_bg w Hw)) Hw)) as Hs.
  split; [exact (steps_inv J (runs_keep True J HJ _ _ inner Ht) Hs Hw)|exact (steps_copies I Hs)].
Qed.

Theorem compose_keeps fuel stack pos total : keeps (compose fuel pos stack total).
Proof.
  apply compose_ind; [exact (layer_steps_keeps _ _ _ (fn_layer_steps (A := no_event) (B := no_write) J (HJ _ _) total))|].
  intros i p inner _. apply apply_policy_keeps.
Qed.
End Keeps.

(* Relations that read the log and the retry ledgers only.  [log_rel R N P]: R contains every step that logs no verdict
   event outside [N] and writes no ledger outside [P] ([steps_log]: the roles of [A] and [B], from the relation's side). *)
Record log_rel (R : world -> world -> Prop) (N : evk -> nat -> Prop) (P : nat -> Prop) : Prop := {
  R_refl : forall w, R w w;
  R_trans : forall a b c, R a b -> R b c -> R a c;
  R_frame : forall w w', w_trace w' = w_trace w -> w_retry w' = w_retry w -> R w w';
  R_put : forall w q r, P q -> R w (put_rstate w q r);
  R_emit : forall w k q o aux, N k q -> R w (emit w k q o aux);
  R_stamp : forall w c, R w (stamp w c);
  N_plain : forall k q, verdict_kind k = false -> N k q }.
Arguments R_refl {R N P}. Arguments R_trans {R N P}. Arguments R_frame {R N P}. Arguments R_put {R N P}.
Arguments R_emit {R N P}. Arguments R_stamp {R N P}. Arguments N_plain {R N P}.

Section Log.
  Context {R : world -> world -> Prop} {N : evk -> nat -> Prop} {P : nat -> Prop} (HR : log_rel R N P).

  Lemma semit_log w w1 k q o aux c : w_trace w1 = w_trace w -> w_retry w1 = w_retry w -> N k q -> R w (stamp (emit w1 k q o aux) c).
  Proof. intros. eapply (R_trans HR); [apply (R_frame HR); eassumption|]. eapply (R_trans HR); [apply (R_emit HR)|apply (R_stamp HR)]. assumption. Qed.

  Lemma steps_log (A : evk -> nat -> Prop) (B : nat -> Prop) (Sub : world -> world -> Prop) :
    (forall k q, A k q -> N k q) -> (forall q, B q -> P q) -> (forall w w', Sub w w' -> R w w') ->
    forall {w w'}, steps False A B Sub w w' -> R w w'.
  Proof.
    intros HA HB HS. apply steps_rel; [exact (R_refl HR)|exact (R_trans HR)|].
    assert (Hv : forall k q, (verdict_kind k = true -> A k q) -> N k q)
      by (intros k q H; destruct (verdict_kind k) eqn:E; [apply HA, H; reflexivity|apply (N_plain HR), E]).
    intros w w' [];
      try (apply (R_frame HR); reflexivity);                                                (* updates of other fields *)
      try (apply semit_log; auto; apply (N_plain HR); reflexivity);                               (* stamped events *)
      auto using (R_put HR), (R_emit HR), (N_plain HR).                                     (* S_put, S_emit, S_call *)
  Qed.

  Let silent := steps False no_event no_write no_call.
  Let no_entry c w : entry False no_inv c w := conj (fun f : False => match f with end) I.

  Lemma silent_log {w w'} : silent w w' -> R w w'.
  Proof. apply steps_log; [intros ? ? []|intros ? []|intros ? ? []]. Qed.

  Lemma wait_log w d intr : R w (snd (wait w d intr)).
  Proof. apply silent_log, advance_steps. intros []. Qed.

  Lemma drain_log w : R w (drain w).
  Proof. apply silent_log, (st_drain no_inv no_inv_kept 0%nat), steps_refl. apply no_entry. Qed.

  Lemma pause_log w d : R w (pause w d).
  Proof. apply silent_log, (st_pause no_inv no_inv_kept 0%nat), steps_refl. apply no_entry. Qed.

  Lemma retry_on_failure_log q cfg c r w : P q -> N KPolFailure q -> N KAbort q -> N KRetriesExceeded q ->
    R w (snd (retry_on_failure cfg q c r w)).
  Proof.
    intros Hp Hf Ha He. apply (steps_log (fun k q' => q' = q /\ N k q) (fun q' => q' = q) no_call); [intros ? ? [-> H]; exact H|intros ? ->; exact Hp|intros ? ? []|].
    apply (st_retry_on_failure no_inv no_inv_kept c); auto using steps_refl, no_entry.
  Qed.

  Lemma fn_layer_log total c w : R w (snd (fn_layer total c w)).
  Proof. apply silent_log, (fn_layer_steps no_inv no_inv_kept), no_entry. Qed.

  Lemma apply_policy_log fuel q total p inner :
    (forall k, own_kind p k = true -> N k q) -> ((exists cfg, p = PRetry cfg) -> P q) ->
    (forall c w, R w (snd (inner c w))) -> forall c w, R w (snd (apply_policy fuel q total p inner c w)).
  Proof.
    intros Hn Hp Hin c w. eapply (steps_log _ _ (runs False no_inv inner)); [..|apply (apply_policy_steps False no_inv (fun _ _ => no_inv_kept) fuel q total p inner); [intros c' w' _; split; [exact I|intros []]|apply no_entry]].
    - intros k q' [-> H]. apply Hn, H.
    - intros q' [-> H]. apply Hp, H.
    - intros a b (c' & _ & ->). apply Hin.
  Qed.

  (* a policy other than retry logs OnFailure / OnSuccess at most, and keeps no ledger *)
  Lemma other_policy_log fuel q total p inner : (forall rc, p <> PRetry rc) -> N KPolFailure q -> N KPolSuccess q ->
    (forall c w, R w (snd (inner c w))) -> forall c w, R w (snd (apply_policy fuel q total p inner c w)).
  Proof.
    intros Hp Hf Hs. apply apply_policy_log; [|intros [cfg ->]; destruct (Hp cfg eq_refl)].
    intros k Hk. destruct (own_kind_other p k Hp Hk) as [-> | ->]; assumption.
  Qed.

  Lemma compose_log fuel start stack total c w :
    (forall k q, emits start stack k q -> N k q) -> (forall q, writes start stack q -> P q) ->
    R w (snd (compose fuel start stack total c w)).
  Proof. intros Hn Hp. apply (steps_log _ _ no_call Hn Hp); [intros ? ? []|apply (compose_steps False), no_entry]. Qed.

  Lemma run_log fuel stack now ext key b l k c script :
    (forall c w, R w (snd (compose fuel 0 stack (length stack) c w))) ->
    R (fresh_world0 now ext key b l k c script) (drain (snd (execute fuel stack (fresh_world now ext key b l k c script)))).
  Proof.
    intros Hc. apply (steps_log no_event no_write (runs False no_inv (compose fuel 0 stack (length stack))));
      [intros ? ? []|intros ? []| |apply (execute_steps False); intros c' w' _; split; [exact I|intros []]].
    intros a d (c' & _ & ->). apply Hc.
  Qed.
End Log.
