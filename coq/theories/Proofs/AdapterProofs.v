(* C18: the adapters' predicates against their documentation, and the retry loops
   (recursions over the script of attempt results), each by one induction over the script. *)
From FS Require Import Model.Adapter.

Theorem http_retryable_documented a :
  http_retryable a = true <->
  match a with
  | AErr e => e <> HUnsupportedScheme /\ e <> HCertNotTrusted /\ e <> HStoppedAfterRedirects /\ e <> HUnknownAuthority
  | AResp r => rs_status r = 429 \/ (500 <= rs_status r /\ rs_status r <> 501)
  end.
Proof.
  destruct a as [r|e]; cbn [http_retryable].
  - split; intros H; lia.
  - destruct e; split; intros H; try discriminate; try (repeat split; discriminate); try reflexivity; destruct H as (H1 & H2 & H3 & H4); congruence.
Qed.

Theorem grpc_retryable_documented code :
  grpc_retryable code = true <-> (code = Some 14 \/ code = Some 4 \/ code = Some 8).
Proof.
  destruct code as [c|]; cbn [grpc_retryable]; split; intros H; try discriminate.
  - assert (Hc : c = 14 \/ c = 4 \/ c = 8) by lia. destruct Hc as [Hc|[Hc|Hc]]; subst c; auto.
  - destruct H as [H|[H|H]]; injection H as ->; reflexivity.
  - destruct H as [H|[H|H]]; discriminate.
Qed.

Theorem retry_after_respected r s :
  (rs_status r = 429 \/ rs_status r = 503) -> rs_retry_after r = Some s -> 0 <= s ->
  http_delay (AResp r) = s * 1000000000.
Proof.
  intros Hs Hr Hp. cbn [http_delay]. rewrite Hr.
  destruct ((rs_status r =? 429) || (rs_status r =? 503)) eqn:E; [reflexivity|lia].
Qed.

Lemma http_retry_returns script : forall n idx r k ds,
  http_retry script n idx = (Some r, k, ds) ->
  exists j a, r = (idx + j)%nat /\ k = S r /\ nth_error script j = Some a
    /\ (http_retryable a = false \/ http_abort a = true)
    /\ forall i, (i < j)%nat -> exists b, nth_error script i = Some b /\ http_retryable b = true /\ http_abort b = false.
Proof.
  induction script as [|a rest IH]; intros n idx r k ds H; cbn [http_retry] in H; [discriminate|].
  destruct (http_retryable a) eqn:E1; cbn [negb] in H.
  - destruct (http_abort a) eqn:E2.
    + destruct n; [discriminate|]. injection H as <- <- _. exists 0%nat, a. rewrite Nat.add_0_r. repeat split; auto. lia.
    + destruct n as [|n]; [discriminate|].
      destruct (http_retry rest n (S idx)) as [[r' k'] ds'] eqn:E. injection H as -> -> _.
      destruct (IH _ _ _ _ _ E) as (j & x & -> & -> & Hx & Hc & Hall). exists (S j), x. repeat split; auto; [lia|].
      intros [|i] Hi; cbn [nth_error]; [eauto|apply Hall; lia].
  - injection H as <- <- _. exists 0%nat, a. rewrite Nat.add_0_r. repeat split; auto. lia.
Qed.

Theorem returned_is_last_attempt script : forall n idx r k ds,
  http_retry script n idx = (Some r, k, ds) -> k = S r.
Proof. intros n idx r k ds H. destruct (http_retry_returns _ _ _ _ _ _ H) as (j & a & _ & Hk & _). exact Hk. Qed.

Theorem retried_exactly_when_retryable script : forall n idx r k ds,
  http_retry script n idx = (Some r, k, ds) ->
  exists a, nth_error script (r - idx) = Some a /\ (http_retryable a = false \/ http_abort a = true)
  /\ forall j, (j < r - idx)%nat -> exists b, nth_error script j = Some b /\ http_retryable b = true /\ http_abort b = false.
Proof.
  intros n idx r k ds H. destruct (http_retry_returns _ _ _ _ _ _ H) as (j & a & -> & _ & Ha & Hc & Hall).
  replace (idx + j - idx)%nat with j by lia. eauto.
Qed.

Theorem http_retry_b_same_attempts base maxd : forall script last n idx,
  fst (http_retry_b base maxd last script n idx) = fst (http_retry script n idx).
Proof.
  induction script as [|a rest IH]; intros last n idx; cbn [http_retry_b http_retry]; [reflexivity|].
  destruct (negb (http_retryable a)); [reflexivity|]. destruct (http_abort a); [destruct n; reflexivity|].
  destruct n as [|n]; [reflexivity|].
  specialize (IH (if http_delay a =? -1 then (if base =? 0 then last else fixed_delay base maxd last idx) else last) n (S idx)).
  destruct (http_retry_b base maxd _ rest n (S idx)) as [[r k] ds]. destruct (http_retry rest n (S idx)) as [[r' k'] ds'].
  cbn [fst] in *. exact IH.
Qed.

Theorem http_retry_b_default : forall script last n idx,
  http_retry_b 0 0 last script n idx = http_retry script n idx.
Proof.
  induction script as [|a rest IH]; intros last n idx; cbn [http_retry_b http_retry]; [reflexivity|].
  destruct (negb (http_retryable a)); [reflexivity|]. destruct (http_abort a); [destruct n; reflexivity|].
  destruct n as [|n]; [reflexivity|]. unfold fixed_delay. cbn [Z.eqb].
  replace (if http_delay a =? -1 then last else last) with last by (destruct (http_delay a =? -1); reflexivity).
  rewrite IH. destruct (http_retry rest n (S idx)) as [[r k] ds]. reflexivity.
Qed.

Lemma retry_after_floor_delay a : retry_after_floor a = Z.max 0 (http_delay a).
Proof.
  destruct a as [r|e]; cbn [retry_after_floor http_delay]; [|reflexivity].
  destruct (_ || _); [destruct (rs_retry_after r)|]; reflexivity.
Qed.

Lemma fixed_delay_nonneg base maxd last k : 0 <= base -> 0 <= maxd -> 0 <= last -> 0 <= fixed_delay base maxd last k.
Proof.
  intros Hb Hm Hl. unfold fixed_delay. destruct (base =? 0); [lia|].
  destruct (negb (last =? 0) && negb (Nat.eqb k 0) && negb (maxd =? 0)); lia.
Qed.

Theorem retry_after_waited base maxd : 0 <= base -> 0 <= maxd -> forall script last n idx r k ds,
  0 <= last ->
  http_retry_b base maxd last script n idx = (r, k, ds) ->
  forall j d, nth_error ds j = Some d ->
  exists a, nth_error script j = Some a /\ retry_after_floor a <= d /\ 0 <= d.
Proof.
  intros Hb Hm. induction script as [|a rest IH]; intros last n idx r k ds Hl H j d Hj; cbn [http_retry_b] in H.
  - injection H as _ _ <-. destruct j; discriminate.
  - destruct (negb (http_retryable a)); [injection H as _ _ <-; destruct j; discriminate|].
    destruct (http_abort a); [destruct n; injection H as _ _ <-; destruct j; discriminate|].
    destruct n as [|n]; [injection H as _ _ <-; destruct j; discriminate|].
    pose proof (fixed_delay_nonneg base maxd last idx Hb Hm Hl) as Hf.
    set (last' := if http_delay a =? -1 then (if base =? 0 then last else fixed_delay base maxd last idx) else last) in H.
    assert (Hl' : 0 <= last') by (unfold last'; destruct (http_delay a =? -1); [destruct (base =? 0)|]; lia).
    destruct (http_retry_b base maxd last' rest n (S idx)) as [[r' k'] ds'] eqn:E. injection H as _ _ <-.
    destruct j as [|j]; cbn [nth_error] in Hj |- *.
    + injection Hj as <-. exists a. rewrite retry_after_floor_delay. split; [reflexivity|].
      destruct (http_delay a =? -1) eqn:E1; lia.
    + eapply IH; [exact Hl'|exact E|exact Hj].
Qed.

Theorem every_attempt_same_body b n x : In x (bodies_of_attempts b n) -> x = attempt_body b.
Proof. unfold bodies_of_attempts. apply repeat_spec. Qed.

Theorem unread_body_is_complete b :
  b_offset b = 0%nat -> b_kind b <> BUnsupported -> b_kind b <> BNone -> attempt_body b = Some (b_content b).
Proof. intros Ho Hk Hn. unfold attempt_body. rewrite Ho. destruct (b_kind b); try reflexivity; contradiction. Qed.

Theorem attempt_context_carries_caller caller exec :
  c_background caller = false ->
  let m := merge_contexts caller exec in
  c_values m = c_values caller /\ c_deadline m = c_deadline caller
  /\ (forall t, c_done_at caller = Some t -> exists t', c_done_at m = Some t' /\ t' <= t).
Proof.
  intros Hb. unfold merge_contexts. rewrite Hb. destruct (c_background exec); cbn.
  - repeat split. intros t Ht. exists t. split; [exact Ht|lia].
  - repeat split. intros t Ht. rewrite Ht. destruct (c_done_at exec) as [u|]; cbn; eexists; split; try reflexivity; lia.
Qed.

(* finding F6: built from context.Background(), the merged context has neither the caller's values nor its deadline *)
Theorem attempt_context_dropped_caller_before_fix :
  exists caller exec, c_background caller = false /\ c_values caller <> [] /\
    c_values (merge_contexts_prefix caller exec) = [] /\ c_deadline (merge_contexts_prefix caller exec) = None
    /\ c_deadline caller <> None.
Proof.
  exists {| c_background := false; c_values := [(1, 2)]; c_deadline := Some 5; c_done_at := Some 5 |},
         {| c_background := false; c_values := []; c_deadline := None; c_done_at := None |}.
  cbn. repeat split; discriminate.
Qed.
