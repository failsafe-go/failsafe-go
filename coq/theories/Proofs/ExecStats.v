(* C17 / C16: the counters every observer reads are exact at every observation point of every execution through any
   stack: the invariant [Tr] is kept by every step of Proofs/ExecSteps.v. *)
From FS Require Import Model.Exec Proofs.ExecProofs Proofs.ExecSteps.

(* not equality on evk: true on the three counted kinds only *)
Definition kind_eq (k1 k2 : evk) : bool :=
  match k1, k2 with
  | KRetry, KRetry | KFnEnd, KFnEnd | KHedge, KHedge => true
  | _, _ => false
  end.
Definition is_kind (k : evk) (e : event) : bool := kind_eq k (e_kind e).

Definition cntk (k : evk) (tr : list event) : Z := Z.of_nat (length (filter (is_kind k) tr)).

(* the trace is newest first *)
Fixpoint trace_ok (tr : list event) : Prop :=
  match tr with
  | [] => True
  | e :: rest =>
      e_attempts e = 1 + e_retries e + e_hedges e /\ e_retries e = cntk KRetry (e :: rest) /\ e_hedges e = cntk KHedge (e :: rest)
      /\ e_executions e = cntk KFnEnd (e :: rest)
      /\ (match rest with e' :: _ => e_time e' <= e_time e | [] => True end)
      /\ trace_ok rest
  end.

Record Tr (w : world) : Prop := {
  tr_att : w_attempts w = 1 + w_retries w + w_hedges w;
  tr_ret : w_retries w = cntk KRetry (w_trace w);
  tr_hed : w_hedges w = cntk KHedge (w_trace w);
  tr_exe : w_executions w = cntk KFnEnd (w_trace w);
  tr_time : match w_trace w with e :: _ => e_time e <= w_now w | [] => True end;
  tr_ok : trace_ok (w_trace w) }.

Definition bump (k1 k : evk) : Z := if kind_eq k1 k then 1 else 0.

Lemma cntk_cons k e tr : cntk k (e :: tr) = bump k (e_kind e) + cntk k tr.
Proof. unfold cntk, bump, is_kind. cbn [filter]. destruct (kind_eq k (e_kind e)); cbn [length]; lia. Qed.

Lemma Tr_emit_gen w w' k pos o aux :
  Tr w -> w_trace w' = w_trace w -> w_now w <= w_now w' ->
  w_retries w' = w_retries w + bump KRetry k -> w_hedges w' = w_hedges w + bump KHedge k ->
  w_executions w' = w_executions w + bump KFnEnd k ->
  w_attempts w' = w_attempts w + bump KRetry k + bump KHedge k ->
  Tr (emit w' k pos o aux).
Proof.
  intros [Ha Hr Hh He Ht Hok] Etr Enow Er Eh Ex Eatt.
  constructor; unfold emit; cbn [w_attempts w_retries w_hedges w_executions w_trace w_now set_trace]; rewrite ?Etr.
  - lia.
  - rewrite cntk_cons. cbn [e_kind]. lia.
  - rewrite cntk_cons. cbn [e_kind]. lia.
  - rewrite cntk_cons. cbn [e_kind]. lia.
  - cbn [e_time]. lia.
  - cbn [trace_ok e_attempts e_retries e_hedges e_executions e_time].
    repeat split; try assumption; rewrite ?cntk_cons; cbn [e_kind]; try lia.
    destruct (w_trace w); [exact I|lia].
Qed.

Lemma Tr_emit w k pos o aux : counted k = false -> Tr w -> Tr (emit w k pos o aux).
Proof.
  intros Hk H. apply (Tr_emit_gen w); try reflexivity; try exact H; try lia;
    unfold bump; destruct k; cbn in *; try discriminate; lia.
Qed.

Lemma Tr_stamp w c : Tr w -> Tr (stamp w c).
Proof.
  intros [Ha Hr Hh He Ht Hok]. unfold stamp. destruct (w_trace w) as [|e t] eqn:E; [constructor; rewrite ?E; assumption|].
  constructor; cbn [w_attempts w_retries w_hedges w_executions w_trace w_now set_trace]; try assumption.
  - rewrite Hr. rewrite !cntk_cons. reflexivity.
  - rewrite Hh. rewrite !cntk_cons. reflexivity.
  - rewrite He. rewrite !cntk_cons. reflexivity.
  - cbn [trace_ok] in *. cbn [e_attempts e_retries e_hedges e_executions e_time]. rewrite !cntk_cons in *. cbn [e_kind]. exact Hok.
Qed.

Lemma Tr_frame w w' :
  w_attempts w' = w_attempts w -> w_retries w' = w_retries w -> w_executions w' = w_executions w ->
  w_hedges w' = w_hedges w ->
  w_trace w' = w_trace w -> w_now w <= w_now w' -> Tr w -> Tr w'.
Proof.
  intros E1 E2 E3 Eh E4 E5 [Ha Hr Hh He Ht Hok]. constructor; rewrite ?E1, ?E2, ?E3, ?Eh, ?E4; try assumption.
  destruct (w_trace w); [exact I|lia].
Qed.

Lemma step_Tr G A B w w' : step G A B no_call w w' -> Tr w -> Tr w'.
Proof.
  intros H Hw. destruct H.
  (* S_now to S_push: counters and log untouched, the clock not set back *)
  1-9: apply (Tr_frame w); try reflexivity; try (cbn; lia); exact Hw.
  1: apply Tr_emit; assumption.
  1: apply Tr_stamp, Tr_emit; assumption.
  (* S_fn_end, S_retry, S_hedge: the event and its counter move in the same step *)
  1-3: apply Tr_stamp, (Tr_emit_gen w); try reflexivity; try exact Hw; cbn; lia.
  (* S_bg, S_bg_new, S_hs *)
  1-3: apply (Tr_frame w); try reflexivity; try (cbn; lia); exact Hw.
  contradiction.                                                         (* S_call: [no_call] has none *)
Qed.

Lemma steps_Tr G A B w w' : steps G A B no_call w w' -> Tr w -> Tr w'.
Proof. apply steps_inv, step_Tr. Qed.

Theorem compose_preserves fuel stack pos total c w : Tr w -> Tr (snd (compose fuel pos stack total c w)).
Proof. eapply steps_Tr, (compose_steps False). split; [intros []|exact I]. Qed.

Theorem execution_statistics_exact fuel stack now ext key b l k c script :
  trace_ok (w_trace (drain (snd (execute fuel stack (fresh_world now ext key b l k c script))))).
Proof. eapply tr_ok, steps_Tr; [apply (run_steps False)|]. constructor; cbn; try reflexivity; exact I. Qed.
