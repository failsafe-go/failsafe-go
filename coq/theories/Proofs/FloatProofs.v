(* C13: the IEEE-754 round-to-nearest-even of Model/Delay.v ([rnd], exact integer arithmetic) never crosses a representable
   value (x <= B implies rnd x <= B, and B <= x implies B <= rnd x, for every B of at most p significant bits) and is accurate
   to 2^-p relative; the envelopes of jittered, random and backoff delays follow, for every draw.
   Two facts about [rnd_pos] carry everything: on the scale s it chooses, 2^(p-1) <= x * 2^s < 2^p ([norm_bounds]), and
   the mantissa is a nearest integer to x * 2^s ([round_he_half]).  2^s is the fraction pu s / pv s of positive integers. *)
From FS Require Import Model.Delay.
Open Scope Z_scope.

Lemma pow2_pos k : 0 < 2 ^ k \/ k < 0.
Proof. destruct (Z_lt_le_dec k 0); [right; assumption|left; apply Z.pow_pos_nonneg; lia]. Qed.

Lemma pow2_gt0 k : 0 <= k -> 0 < 2 ^ k.
Proof. destruct (pow2_pos k); lia. Qed.

Lemma abs_sum a b c : a = b + c -> Z.abs a <= Z.abs b + Z.abs c.
Proof. intros ->. apply Z.abs_triangle. Qed.

Definition pu (s : Z) : Z := if 0 <=? s then 2 ^ s else 1.
Definition pv (s : Z) : Z := if 0 <=? s then 1 else 2 ^ (- s).

Lemma pu_pos s : 0 < pu s.
Proof. unfold pu. destruct (0 <=? s) eqn:E; [apply pow2_gt0; lia|lia]. Qed.
Lemma pv_pos s : 0 < pv s.
Proof. unfold pv. destruct (0 <=? s) eqn:E; [lia|apply pow2_gt0; lia]. Qed.

Lemma scaled2_pw a d s : scaled2 a d s = (a * pu s, d * pv s).
Proof. unfold scaled2, pu, pv. destruct (0 <=? s); f_equal; ring. Qed.

Lemma pw_shift s s' : s' <= s -> pu s * pv s' = 2 ^ (s - s') * (pu s' * pv s).
Proof.
  intros Hs. unfold pu, pv. destruct (Z.leb_spec 0 s), (Z.leb_spec 0 s'); try lia;
    rewrite ?Z.mul_1_l, ?Z.mul_1_r, <- ?Z.pow_add_r by lia; f_equal; lia.
Qed.

Definition bval (m s : Z) : fl := (m * pv s, pu s).   (* the value m / 2^s *)
Definition fle (x y : fl) : Prop := fst x * snd y <= fst y * snd x.
Definition wf (x : fl) : Prop := 0 < snd x.
Definition fneg (x : fl) : fl := (- fst x, snd x).

Lemma fle_trans x y z : wf x -> wf y -> wf z -> fle x y -> fle y z -> fle x z.
Proof.
  unfold fle, wf. destruct x as [a b], y as [c d], z as [e f]. cbn [fst snd]. intros Hb Hd Hf H1 H2.
  apply Z.mul_le_mono_pos_r with (p := d); [assumption|].
  apply (Z.mul_le_mono_nonneg_r _ _ f) in H1; [|lia]. apply (Z.mul_le_mono_nonneg_r _ _ b) in H2; lia.
Qed.

Lemma fle_fneg_l x y : fle (fneg x) y <-> fle (fneg y) x.
Proof. unfold fle, fneg. cbn [fst snd]. lia. Qed.

Lemma fle_fneg x y : fle (fneg x) (fneg y) <-> fle y x.
Proof. unfold fle, fneg. cbn [fst snd]. lia. Qed.

Lemma fle_scale j a d y : 0 < j -> (fle y (j * a, j * d) <-> fle y (a, d)).
Proof. intros Hj. unfold fle. cbn [fst snd]. rewrite (Z.mul_le_mono_pos_l (fst y * d) _ j Hj). split; intros H; lia. Qed.

Lemma bval_nat m s : 0 <= s -> bval m s = (m * 1, 2 ^ s).
Proof. intros H. unfold bval, pu, pv. rewrite (proj2 (Z.leb_le 0 s) H). reflexivity. Qed.

Lemma bval_wf m s : wf (bval m s).
Proof. apply pu_pos. Qed.

Lemma bval_pos m s : 0 < m -> 0 < fst (bval m s).
Proof. intros H. apply Z.mul_pos_pos; [assumption|apply pv_pos]. Qed.

Lemma fle_bval_pos m s x : wf x -> 0 < m -> fle (bval m s) x -> 0 < fst x.
Proof.
  unfold fle, wf. intros Hx Hm H. pose proof (Z.mul_pos_pos _ _ (bval_pos m s Hm) Hx).
  apply (Z.mul_pos_cancel_r _ (snd (bval m s))); [apply bval_wf|lia].
Qed.

Lemma bval_opp m s : fneg (bval m s) = bval (- m) s.
Proof. unfold fneg, bval. cbn [fst snd]. rewrite Z.mul_opp_l. reflexivity. Qed.

Lemma bval_mono m m' s : m <= m' -> fle (bval m s) (bval m' s).
Proof.
  intros H. unfold fle, bval. cbn [fst snd]. pose proof (pu_pos s). pose proof (pv_pos s).
  repeat apply Z.mul_le_mono_nonneg_r; lia.
Qed.

Lemma bval_cmp m s m' s' : s' <= s ->
  (m <= m' * 2 ^ (s - s') -> fle (bval m s) (bval m' s')) /\ (m' * 2 ^ (s - s') <= m -> fle (bval m' s') (bval m s)).
Proof.
  intros Hs. unfold fle, bval. cbn [fst snd].
  assert (E1 : m' * pv s' * pu s = m' * 2 ^ (s - s') * (pu s' * pv s))
    by (transitivity (m' * (pu s * pv s')); [|rewrite (pw_shift s s' Hs)]; ring).
  assert (E2 : m * pv s * pu s' = m * (pu s' * pv s)) by ring. rewrite E1, E2.
  pose proof (Z.mul_pos_pos _ _ (pu_pos s') (pv_pos s)).
  split; apply Z.mul_le_mono_nonneg_r; lia.
Qed.

Lemma bval_pow_le k s k' s' : 0 <= k -> 0 <= k' -> k - s <= k' - s' -> fle (bval (2 ^ k) s) (bval (2 ^ k') s').
Proof.
  intros Hk Hk' H. destruct (Z_le_gt_dec s' s); [apply (bval_cmp _ s _ s')|apply (bval_cmp _ s' _ s)]; try lia;
    rewrite <- Z.pow_add_r by lia; apply Z.pow_le_mono_r; lia.
Qed.

Lemma fle_bval_r a d K s : fle (a, d) (bval K s) <-> a * pu s <= K * (d * pv s).
Proof. unfold fle, bval. cbn [fst snd]. lia. Qed.
Lemma fle_bval_l a d K s : fle (bval K s) (a, d) <-> K * (d * pv s) <= a * pu s.
Proof. unfold fle, bval. cbn [fst snd]. lia. Qed.

Lemma div_ge_bval a d k s : 0 < d -> (k <= a * pu s / (d * pv s) <-> fle (bval k s) (a, d)).
Proof.
  intros Hd. rewrite fle_bval_l. pose proof (Z.mul_pos_pos _ _ Hd (pv_pos s)) as P.
  split; intros H; [|apply Z.div_le_lower_bound; lia].
  pose proof (Z.mul_div_le (a * pu s) _ P). apply (Z.mul_le_mono_nonneg_r _ _ (d * pv s)) in H; lia.
Qed.

(* which way ties go matters nowhere in this file *)
Definition round_he (n d' : Z) : Z :=
  let q := n / d' in let r := n mod d' in
  if 2 * r <? d' then q else if d' <? 2 * r then q + 1 else if Z.even q then q else q + 1.

Lemma round_he_half n d' : 0 < d' -> 2 * Z.abs (round_he n d' * d' - n) <= d'.
Proof.
  intros Hd. unfold round_he.
  pose proof (Z.div_mod n d' ltac:(lia)) as Hdm. pose proof (Z.mod_pos_bound n d' Hd) as Hr.
  set (q := n / d') in *. set (r := n mod d') in *.
  destruct (2 * r <? d') eqn:E1; [lia|]. destruct (d' <? 2 * r) eqn:E2; [lia|]. destruct (Z.even q); lia.
Qed.

Lemma round_he_le n d' K : 0 < d' -> n <= K * d' -> round_he n d' <= K.
Proof.
  intros Hd H. pose proof (round_he_half n d' Hd).
  assert (H2 : 2 * round_he n d' * d' < (2 * K + 2) * d') by lia. apply Z.mul_lt_mono_pos_r in H2; lia.
Qed.

Lemma round_he_ge n d' K : 0 < d' -> K * d' <= n -> K <= round_he n d'.
Proof.
  intros Hd H. pose proof (round_he_half n d' Hd).
  assert (H2 : (2 * K - 2) * d' < 2 * round_he n d' * d') by lia. apply Z.mul_lt_mono_pos_r in H2; lia.
Qed.

Lemma round_he_scale j n d : 0 < j -> 0 < d -> round_he (j * n) (j * d) = round_he n d.
Proof.
  intros Hj Hd. unfold round_he. rewrite Z.div_mul_cancel_l, Z.mul_mod_distr_l by lia.
  unfold Z.ltb. rewrite !(Z.mul_shuffle3 2 j), <- !(Zmult_compare_compat_l _ _ j) by lia. reflexivity.
Qed.

(* the scale [rnd_pos] chooses.  The estimate s0 from the two [log2] is right or one short ([estimate_bounds]: the
   first branch is never taken), and one division tells which *)
Definition norm_s (p a d : Z) : Z :=
  let s0 := (p - 1) - (Z.log2 a - Z.log2 d) in
  let q0 := (a * pu s0) / (d * pv s0) in
  if 2 ^ p <=? q0 then s0 - 1 else if q0 <? 2 ^ (p - 1) then s0 + 1 else s0.

Lemma rnd_pos_val p a d :
  rnd_pos p a d = bval (round_he (a * pu (norm_s p a d)) (d * pv (norm_s p a d))) (norm_s p a d).
Proof.
  assert (E : forall m s, (if 0 <=? s then (m, 2 ^ s) else (m * 2 ^ (- s), 1)) = bval m s)
    by (intros; unfold bval, pu, pv; destruct (0 <=? s); f_equal; ring).
  unfold rnd_pos, norm_s. cbv zeta. rewrite !scaled2_pw. apply E.
Qed.

Lemma rnd_pos_wf p a d : wf (rnd_pos p a d).
Proof. rewrite rnd_pos_val. apply bval_wf. Qed.

#[local] Hint Resolve bval_wf rnd_pos_wf : core.

Lemma estimate_bounds p a d : 2 <= p -> 0 < a -> 0 < d ->
  let s0 := (p - 1) - (Z.log2 a - Z.log2 d) in fle (bval (2 ^ (p - 2)) s0) (a, d) /\ ~ fle (bval (2 ^ p) s0) (a, d).
Proof.
  intros Hp Ha Hd s0. assert (Hw : wf (a, d)) by exact Hd.
  pose proof (Z.log2_spec a Ha) as [La Ua]. pose proof (Z.log2_spec d Hd) as [Ld Ud].
  pose proof (Z.log2_nonneg a). pose proof (Z.log2_nonneg d). set (la := Z.log2 a) in *. set (ld := Z.log2 d) in *.
  pose proof (pow2_gt0 la ltac:(lia)). pose proof (pow2_gt0 ld ltac:(lia)).
  (* 2^la / 2^(ld+1) <= a / d < 2^(la+1) / 2^ld, and these are 2^(p-2) / 2^s0 and 2^p / 2^s0 *)
  split.
  - apply fle_trans with (bval (2 ^ la) (Z.succ ld)); auto; [apply bval_pow_le; lia|].
    rewrite bval_nat by lia. unfold fle. cbn [fst snd]. rewrite Z.mul_1_r. apply Z.mul_le_mono_nonneg; lia.
  - intros U. apply (fle_trans (bval (2 ^ Z.succ la) ld)) in U; auto; [|apply bval_pow_le; lia].
    rewrite bval_nat in U by lia. unfold fle in U. cbn [fst snd] in U.
    apply (Z.mul_lt_mono_pos_r (2 ^ ld)) in Ua; [|assumption]. apply (Z.mul_le_mono_nonneg_l _ _ (2 ^ Z.succ la)) in Ld; lia.
Qed.

Lemma norm_bounds p a d : 2 <= p -> 0 < a -> 0 < d ->
  fle (bval (2 ^ (p - 1)) (norm_s p a d)) (a, d) /\ ~ fle (bval (2 ^ p) (norm_s p a d)) (a, d).
Proof.
  intros Hp Ha Hd. destruct (estimate_bounds p a d Hp Ha Hd) as [L0 U0]. unfold norm_s. cbv zeta in *.
  set (s0 := p - 1 - (Z.log2 a - Z.log2 d)) in *. assert (Hw : wf (a, d)) by exact Hd.
  destruct (Z.leb_spec (2 ^ p) (a * pu s0 / (d * pv s0))) as [T|_]; [apply div_ge_bval in T; [contradiction|assumption]|].
  destruct (Z.ltb_spec (a * pu s0 / (d * pv s0)) (2 ^ (p - 1))) as [T|T].
  - (* one bit short: 2^(p-1) / 2^(s0+1) = 2^(p-2) / 2^s0 and 2^p / 2^(s0+1) = 2^(p-1) / 2^s0 *)
    rewrite <- Z.nle_gt, div_ge_bval in T by assumption. split.
    + apply fle_trans with (bval (2 ^ (p - 2)) s0); auto. apply bval_pow_le; lia.
    + intros H. apply T. apply fle_trans with (bval (2 ^ p) (s0 + 1)); auto. apply bval_pow_le; lia.
  - split; [apply div_ge_bval; assumption|exact U0].
Qed.

Lemma rnd_pos_no_cross_own_scale p a d K : 0 < d -> let s := norm_s p a d in
  (fle (a, d) (bval K s) -> fle (rnd_pos p a d) (bval K s)) /\ (fle (bval K s) (a, d) -> fle (bval K s) (rnd_pos p a d)).
Proof.
  intros Hd s. rewrite rnd_pos_val. fold s. pose proof (Z.mul_pos_pos _ _ Hd (pv_pos s)) as Pd.
  split; intros H; apply bval_mono; [apply round_he_le, fle_bval_r|apply round_he_ge, fle_bval_l]; assumption.
Qed.

(* x <= z through y: leaves x <= y and y <= z, in this order; the [wf] side conditions go by the hints *)
Local Ltac fle_via y := apply fle_trans with y; [solve [auto]..| |].

Theorem rnd_pos_no_cross p a d M sB : 2 <= p -> 0 < a -> 0 < d -> M <= 2 ^ p ->
  (fle (a, d) (bval M sB) -> fle (rnd_pos p a d) (bval M sB)) /\ (fle (bval M sB) (a, d) -> fle (bval M sB) (rnd_pos p a d)).
Proof.
  intros Hp Ha Hd HM. assert (Hw : wf (a, d)) by exact Hd. set (s := norm_s p a d).
  destruct (Z_le_gt_dec sB s) as [Hs|Hs].     (* below: x = a / d, r its rounding, B = M / 2^sB *)
  - (* sB <= s: B is the value K / 2^s of the scale s (E1, E2), and such a value [rnd_pos] does not cross *)
    set (K := M * 2 ^ (s - sB)).
    destruct (bval_cmp K s M sB Hs) as [E1 E2]. specialize (E1 (Z.le_refl _)). specialize (E2 (Z.le_refl _)).
    destruct (rnd_pos_no_cross_own_scale p a d K Hd) as [G1 G2]. fold s in G1, G2.
    split; intros H.
    + fle_via (bval K s); [apply G1; fle_via (bval M sB); [exact H|exact E2]|exact E1].
    + fle_via (bval K s); [exact E2|apply G2; fle_via (bval M sB); [exact E1|exact H]].
  - (* s < sB: B <= P <= x, where P = 2^(p-1) / 2^s is the least value of the scale s *)
    destruct (norm_bounds p a d Hp Ha Hd) as [L _]. destruct (rnd_pos_no_cross_own_scale p a d (2 ^ (p - 1)) Hd) as [G1 G2].
    fold s in L, G1, G2. pose (P := bval (2 ^ (p - 1)) s). assert (WP : wf P) by apply bval_wf.
    assert (C : fle (bval M sB) P) by (fle_via (bval (2 ^ p) sB); [apply bval_mono, HM|apply bval_pow_le; lia]).
    split; intros H.
    + fle_via P; [apply G1; fle_via (bval M sB); [exact H|exact C]|fle_via (a, d); [exact L|exact H]].
    + fle_via P; [exact C|exact (G2 L)].
Qed.

Lemma rnd_pos_positive p a d : 2 <= p -> 0 < a -> 0 < d -> 0 < fst (rnd_pos p a d).
Proof.
  intros Hp Ha Hd. destruct (norm_bounds p a d Hp Ha Hd) as [L _]. apply (rnd_pos_no_cross_own_scale p a d _ Hd) in L.
  apply fle_bval_pos in L; auto. apply pow2_gt0; lia.
Qed.

Lemma norm_s_unique p a d s : 2 <= p -> 0 < a -> 0 < d ->
  fle (bval (2 ^ (p - 1)) s) (a, d) -> ~ fle (bval (2 ^ p) s) (a, d) -> norm_s p a d = s.
Proof.
  intros Hp Ha Hd L U. destruct (norm_bounds p a d Hp Ha Hd) as [L' U']. set (s' := norm_s p a d) in *.
  assert (G : forall s1 s2, s1 < s2 -> fle (bval (2 ^ (p - 1)) s1) (a, d) -> fle (bval (2 ^ p) s2) (a, d))
    by (intros s1 s2 Hlt L1; apply fle_trans with (bval (2 ^ (p - 1)) s1); auto; try exact Hd; apply bval_pow_le; lia).
  destruct (Z.lt_total s' s) as [H|[H|H]]; [destruct (U (G s' s H L'))|exact H|destruct (U' (G s s' H L))].
Qed.

Lemma rnd_pos_scale p j a d : 2 <= p -> 0 < j -> 0 < a -> 0 < d -> rnd_pos p (j * a) (j * d) = rnd_pos p a d.
Proof.
  intros Hp Hj Ha Hd. destruct (norm_bounds p a d Hp Ha Hd) as [L U]. rewrite !rnd_pos_val.
  assert (E : norm_s p (j * a) (j * d) = norm_s p a d)
    by (apply norm_s_unique; try assumption; try (apply Z.mul_pos_pos; assumption); rewrite fle_scale; assumption).
  rewrite E, <- !Z.mul_assoc, round_he_scale; [reflexivity|assumption|]. apply Z.mul_pos_pos; [assumption|apply pv_pos].
Qed.

Lemma rnd_cases p x :
  (fst x = 0 /\ rnd p x = (0, 1)) \/ (0 < fst x /\ rnd p x = rnd_pos p (fst x) (snd x))
  \/ (fst x < 0 /\ rnd p x = fneg (rnd_pos p (- fst x) (snd x))).
Proof.
  destruct x as [n d]. unfold rnd, fneg. cbn [fst snd].
  destruct (Z.eqb_spec n 0), (Z.ltb_spec 0 n); try lia; [left|right; left|right; right]; split; try lia; try reflexivity.
  destruct (rnd_pos p (- n) d); reflexivity.
Qed.

Lemma rnd_opp p x : rnd p (fneg x) = fneg (rnd p x).
Proof.
  destruct x as [n d]. unfold rnd, fneg. cbn [fst snd].
  destruct (Z.eqb_spec n 0), (Z.ltb_spec 0 n), (Z.eqb_spec (- n) 0), (Z.ltb_spec 0 (- n)); try lia.    (* of the 16 outcomes 3 are consistent *)
  - (* n = 0 *) reflexivity.
  - (* 0 < n *) rewrite Z.opp_involutive. destruct (rnd_pos p n d); reflexivity.
  - (* n < 0 *) destruct (rnd_pos p (- n) d). cbn [fst snd]. rewrite Z.opp_involutive. reflexivity.
Qed.

Lemma rnd_wf p x : wf (rnd p x).
Proof. destruct (rnd_cases p x) as [[_ ->]|[[_ ->]|[_ ->]]]; [exact Z.lt_0_1|apply rnd_pos_wf..]. Qed.

(* of_int, fmul, fadd, fsub are [rnd] of something *)
#[local] Hint Extern 1 (wf _) => apply rnd_wf : core.

Theorem rnd_keeps_le p x M sB : 2 <= p -> wf x -> Z.abs M <= 2 ^ p -> fle x (bval M sB) -> fle (rnd p x) (bval M sB).
Proof.
  intros Hp Hw HM H. destruct (rnd_cases p x) as [[Hx ->]|[[Hx ->]|[Hx ->]]].
  - unfold fle in *. rewrite Hx in H. cbn [fst snd]. rewrite Z.mul_1_r. apply (Z.mul_nonneg_cancel_r _ (snd x) Hw). lia.
  - apply rnd_pos_no_cross; try assumption; lia.
  - (* - r <= B from - B <= r, r the rounding of - x *)
    apply fle_fneg_l. rewrite bval_opp. apply rnd_pos_no_cross; try assumption; try lia.
    rewrite <- bval_opp. apply (fle_fneg (bval M sB) x), H.
Qed.

Theorem rnd_keeps_ge p x M sB : 2 <= p -> wf x -> Z.abs M <= 2 ^ p -> fle (bval M sB) x -> fle (bval M sB) (rnd p x).
Proof.
  intros Hp Hw HM H. apply fle_fneg. rewrite <- rnd_opp, bval_opp. apply rnd_keeps_le; [assumption|exact Hw|lia|].
  rewrite <- bval_opp. apply fle_fneg, H.
Qed.

Theorem rnd_abs_le p x mB sB : 2 <= p -> wf x -> 2 ^ (p - 1) <= mB < 2 ^ p ->
  fle x (bval mB sB) -> fle (fneg (bval mB sB)) x ->
  fle (rnd p x) (bval mB sB) /\ fle (fneg (bval mB sB)) (rnd p x).
Proof.
  intros Hp Hw HmB Hu Hl. pose proof (pow2_gt0 (p - 1) ltac:(lia)). rewrite bval_opp in *.
  split; [apply rnd_keeps_le|apply rnd_keeps_ge]; try assumption; lia.
Qed.

Definition le_int (x : fl) (J : Z) : Prop := fst x <= J * snd x.
Definition ge_int (x : fl) (J : Z) : Prop := J * snd x <= fst x.

Lemma le_int_bval x J : le_int x J <-> fle x (bval J 0).
Proof. unfold le_int, fle. cbn. lia. Qed.
Lemma ge_int_bval x J : ge_int x J <-> fle (bval J 0) x.
Proof. unfold ge_int, fle. cbn. lia. Qed.

Theorem rnd_keeps_le_int p x J : 2 <= p -> wf x -> Z.abs J <= 2 ^ p -> le_int x J -> le_int (rnd p x) J.
Proof. intros Hp Hw HJ H. apply le_int_bval, rnd_keeps_le, le_int_bval; assumption. Qed.

Theorem rnd_keeps_ge_int p x J : 2 <= p -> wf x -> Z.abs J <= 2 ^ p -> ge_int x J -> ge_int (rnd p x) J.
Proof. intros Hp Hw HJ H. apply ge_int_bval, rnd_keeps_ge, ge_int_bval; assumption. Qed.

Theorem rnd_le_int p x J : 2 <= p -> wf x -> 0 < J < 2 ^ p -> le_int x J -> ge_int x (- J) ->
  le_int (rnd p x) J /\ ge_int (rnd p x) (- J).
Proof. intros Hp Hw HJ Hu Hl. split; [apply rnd_keeps_le_int|apply rnd_keeps_ge_int]; auto; lia. Qed.

Theorem rnd_ge_int p x J : 2 <= p -> wf x -> 0 < J < 2 ^ p -> ge_int x J -> ge_int (rnd p x) J.
Proof. intros Hp Hw HJ Hl. apply rnd_keeps_ge_int; auto; lia. Qed.

Theorem rnd_exact_int p x J : 2 <= p -> wf x -> 0 <= J < 2 ^ p -> le_int x J -> ge_int x J ->
  le_int (rnd p x) J /\ ge_int (rnd p x) J.
Proof. intros Hp Hw HJ Hu Hl. split; [apply rnd_keeps_le_int|apply rnd_keeps_ge_int]; auto; lia. Qed.

Definition between (lo hi : Z) (x : fl) : Prop := wf x /\ ge_int x lo /\ le_int x hi.

Lemma int_between J : between J J (J, 1).
Proof. unfold between, wf, ge_int, le_int. cbn. lia. Qed.

Lemma draw_between r : wf r -> 0 <= fst r < snd r -> between 0 1 r.
Proof. unfold between, wf, ge_int, le_int. lia. Qed.

Lemma between_weaken lo hi lo' hi' x : between lo hi x -> lo' <= lo -> hi <= hi' -> between lo' hi' x.
Proof.
  unfold between, wf, ge_int, le_int. intros (Hw & Hl & Hu) H1 H2.
  apply (Z.mul_le_mono_nonneg_r _ _ (snd x)) in H1, H2; lia.
Qed.

Lemma rnd_between p lo hi x : 2 <= p -> - 2 ^ p <= lo -> hi <= 2 ^ p -> between lo hi x -> between lo hi (rnd p x).
Proof.
  intros Hp Hlo Hhi (Hw & Hl & Hu).
  assert (lo <= hi) by (apply (Z.mul_le_mono_pos_r _ _ (snd x) Hw); unfold ge_int, le_int in *; lia).
  repeat split; [apply rnd_wf|apply rnd_keeps_ge_int|apply rnd_keeps_le_int]; auto; lia.
Qed.

Lemma of_int_between p J : 2 <= p -> Z.abs J <= 2 ^ p -> between J J (of_int p J).
Proof. intros Hp HJ. apply rnd_between; [lia..|apply int_between]. Qed.

Lemma fadd_between p x y a b c d : 2 <= p -> between a b x -> between c d y -> - 2 ^ p <= a + c -> b + d <= 2 ^ p ->
  between (a + c) (b + d) (fadd p x y).
Proof.
  intros Hp (Wx & Lx & Ux) (Wy & Ly & Uy) Hlo Hhi. apply rnd_between; try assumption.
  unfold between, wf, ge_int, le_int in *. cbn [fst snd].
  apply (Z.mul_le_mono_nonneg_r _ _ (snd y)) in Lx, Ux; [|lia..]. apply (Z.mul_le_mono_nonneg_r _ _ (snd x)) in Ly, Uy; [|lia..].
  split; [apply Z.mul_pos_pos; assumption|lia].
Qed.

Lemma fsub_between p x y a b c d : 2 <= p -> between a b x -> between c d y -> - 2 ^ p <= a - d -> b - c <= 2 ^ p ->
  between (a - d) (b - c) (fsub p x y).
Proof.
  intros Hp (Wx & Lx & Ux) (Wy & Ly & Uy) Hlo Hhi. apply rnd_between; try assumption.
  unfold between, wf, ge_int, le_int in *. cbn [fst snd].
  apply (Z.mul_le_mono_nonneg_r _ _ (snd y)) in Lx, Ux; [|lia..]. apply (Z.mul_le_mono_nonneg_r _ _ (snd x)) in Ly, Uy; [|lia..].
  split; [apply Z.mul_pos_pos; assumption|lia].
Qed.

Lemma fmul_between p x y a b d : 2 <= p -> a <= 0 <= b -> between a b x -> between 0 d y -> - 2 ^ p <= a * d -> b * d <= 2 ^ p ->
  between (a * d) (b * d) (fmul p x y).
Proof.
  intros Hp Hab (Wx & Lx & Ux) (Wy & Ly & Uy) Hlo Hhi. apply rnd_between; try assumption.
  unfold between, wf, ge_int, le_int in *. cbn [fst snd]. split; [apply Z.mul_pos_pos; assumption|].
  apply (Z.mul_le_mono_nonneg_r _ _ (fst y)) in Lx, Ux; [|lia..].
  assert (a * snd x * (d * snd y) <= a * snd x * fst y) by (apply Z.mul_le_mono_nonpos_l; [apply Z.mul_nonpos_nonneg|]; lia).
  assert (b * snd x * fst y <= b * snd x * (d * snd y)) by (apply Z.mul_le_mono_nonneg_l; [apply Z.mul_nonneg_nonneg|]; lia).
  lia.
Qed.

Lemma to_int_between lo hi x : between lo hi x -> lo <= to_int x <= hi.
Proof.
  unfold between, ge_int, le_int. intros (Hw & Hl & Hu). rewrite Z.mul_comm in Hl, Hu.
  split; [apply Z.quot_le_lower_bound|apply Z.quot_le_upper_bound]; assumption.
Qed.

Lemma centred_draw p r : 2 <= p -> wf r -> 0 <= fst r < snd r -> between (- 1) 1 (fsub p (1, 1) (fmul p r (2, 1))).
Proof.
  intros Hp Hw Hr. assert (4 <= 2 ^ p) by (change 4 with (2 ^ 2); apply Z.pow_le_mono_r; lia).
  apply (fsub_between p _ _ 1 1 (0 * 2) (1 * 2)); [assumption|apply int_between| |lia..].
  apply fmul_between; [assumption|lia|apply draw_between; assumption| |lia..].
  apply between_weaken with 2 2; [apply int_between|lia..].
Qed.

Lemma pow53 : 2 <= 53. Proof. lia. Qed.

Theorem jitter_envelope delay jitter random :
  0 < jitter < 2 ^ 53 -> wf random -> 0 <= fst random < snd random ->
  delay - jitter <= random_delay delay jitter random <= delay + jitter.
Proof.
  intros HJ Hw Hr. unfold random_delay.
  assert (BJ : between 0 jitter (of_int 53 jitter)) by (apply between_weaken with jitter jitter; [apply of_int_between|..]; lia).
  pose proof (fmul_between 53 _ _ (- 1) 1 jitter pow53 ltac:(lia) (centred_draw 53 random pow53 Hw Hr) BJ ltac:(lia) ltac:(lia)) as B.
  apply to_int_between in B. lia.
Qed.

Theorem random_range_envelope dmin dmax random :
  0 < dmin -> dmin <= dmax -> dmax < 2 ^ 53 -> wf random -> 0 <= fst random < snd random ->
  dmin <= random_delay_in_range dmin dmax random <= dmax.
Proof.
  intros Hm Hle HM Hw Hr. unfold random_delay_in_range.
  assert (Bm : between dmin dmin (of_int 53 dmin)) by (apply of_int_between; lia).
  assert (BM : between dmax dmax (of_int 53 dmax)) by (apply of_int_between; lia).
  pose proof (fsub_between 53 _ _ _ _ _ _ pow53 BM Bm ltac:(lia) ltac:(lia)) as BD.
  apply between_weaken with (lo' := 0) (hi' := dmax - dmin) in BD; [|lia..].
  pose proof (fmul_between 53 _ _ 0 1 (dmax - dmin) pow53 ltac:(lia) (draw_between random Hw Hr) BD ltac:(lia) ltac:(lia)) as BP.
  pose proof (fadd_between 53 _ _ _ _ _ _ pow53 BP Bm ltac:(lia) ltac:(lia)) as BS.
  apply to_int_between in BS. lia.
Qed.

Lemma fle_mul_ge1 x f : wf x -> 0 <= fst x -> snd f <= fst f -> fle x (fst x * fst f, snd x * snd f).
Proof.
  unfold fle, wf. cbn [fst snd]. intros Hw Hx Hf.
  rewrite Z.mul_assoc, (Z.mul_shuffle0 (fst x) (fst f)). apply Z.mul_le_mono_nonneg_l; [apply Z.mul_nonneg_nonneg; lia|assumption].
Qed.

Theorem backoff_step_not_below mB sB last factor :
  2 ^ 23 <= mB < 2 ^ 24 -> wf factor -> snd factor <= fst factor ->
  fle (last, 1) (bval mB sB) -> fle (bval mB sB) (last, 1) ->
  last <= to_int (fmul 24 (of_int 24 last) factor).
Proof.
  intros HmB Wf Hf Hle Hge. assert (W0 : wf (last, 1)) by exact Z.lt_0_1. assert (HM : Z.abs mB <= 2 ^ 24) by lia.
  pose proof (rnd_keeps_ge 24 _ _ _ ltac:(lia) W0 HM Hge) as G1. fold (of_int 24 last) in G1.
  pose proof (rnd_wf 24 (last, 1)) as W1. fold (of_int 24 last) in W1.
  assert (P1 : 0 < fst (of_int 24 last)) by (apply fle_bval_pos in G1; auto; lia).
  pose proof (Z.mul_pos_pos _ _ W1 Wf) as Wx.
  assert (G2 : fle (bval mB sB) (fmul 24 (of_int 24 last) factor)).
  { apply rnd_keeps_ge; [lia|exact Wx|lia|]. apply fle_trans with (of_int 24 last); auto. apply fle_mul_ge1; auto; lia. }
  apply Z.quot_le_lower_bound; [apply rnd_wf|].
  apply (fle_trans (last, 1)) in G2; auto. unfold fle in G2. cbn [fst snd] in G2. lia.
Qed.

(* |x - y| <= y / E *)
Definition near (E : Z) (x y : fl) : Prop := E * Z.abs (fst x * snd y - fst y * snd x) <= fst y * snd x.

Lemma rnd_pos_near p a d : 2 <= p -> 0 < a -> 0 < d -> near (2 ^ p) (rnd_pos p a d) (a, d).
Proof.
  intros Hp Ha Hd. destruct (norm_bounds p a d Hp Ha Hd) as [L _]. apply fle_bval_l in L.
  rewrite rnd_pos_val. unfold near, bval. cbn [fst snd]. set (s := norm_s p a d) in *.
  pose proof (round_he_half (a * pu s) (d * pv s) (Z.mul_pos_pos _ _ Hd (pv_pos s))) as Hh.
  replace (_ * pv s * d - a * pu s) with (round_he (a * pu s) (d * pv s) * (d * pv s) - a * pu s) by ring.
  replace p with (p - 1 + 1) at 1 by lia. rewrite Z.pow_add_r, <- Z.mul_assoc by lia.
  apply (Z.mul_le_mono_nonneg_l _ _ (2 ^ (p - 1))) in Hh; [lia|apply Z.lt_le_incl, pow2_gt0; lia].
Qed.

Lemma rnd_near p x : 2 <= p -> wf x -> 0 < fst x -> near (2 ^ p) (rnd p x) x /\ 0 < fst (rnd p x).
Proof.
  intros Hp Hw Hx. destruct (rnd_cases p x) as [[? _]|[[_ ->]|[? _]]]; try lia.
  split; [destruct x; apply rnd_pos_near|apply rnd_pos_positive]; assumption.
Qed.

Lemma near_scale E x y k l : 0 <= k -> 0 <= l -> near E x y -> near E (k * fst x, l * snd x) (k * fst y, l * snd y).
Proof.
  unfold near. cbn [fst snd]. intros Hk Hl H. pose proof (Z.mul_nonneg_nonneg _ _ Hk Hl).
  replace (k * fst x * (l * snd y) - k * fst y * (l * snd x)) with ((fst x * snd y - fst y * snd x) * (k * l)) by ring.
  replace (k * fst y * (l * snd x)) with (fst y * snd x * (k * l)) by ring.
  rewrite Z.abs_mul, (Z.abs_eq (k * l)), Z.mul_assoc by assumption. apply Z.mul_le_mono_nonneg_r; assumption.
Qed.

(* (1 + 1/E1) (1 + 1/E2) <= 1 + 1/E3 *)
Lemma near_trans E1 E2 E3 x y z : near E1 x y -> near E2 y z ->
  wf x -> wf y -> wf z -> 0 <= E1 -> 0 <= E2 -> E3 * (E1 + E2 + 1) <= E1 * E2 -> near E3 x z.
Proof.
  unfold near, wf. destruct x as [a b], y as [c e], z as [g h]. cbn [fst snd]. intros H1 H2 Hb He Hh P1 P2 HE.
  assert (T : Z.abs ((a * h - g * b) * e) <= Z.abs ((a * e - c * b) * h) + Z.abs ((c * h - g * e) * b))
    by (apply abs_sum; ring).                      (* x - z = (x - y) + (y - z), over the denominator b e h *)
  rewrite !Z.abs_mul, (Z.abs_eq e), (Z.abs_eq h), (Z.abs_eq b) in T by lia.
  set (X := Z.abs (a * h - g * b)) in *. set (Y := Z.abs (a * e - c * b)) in *. set (W := Z.abs (c * h - g * e)) in *.
  (* Now T : X e <= Y h + W b,  H1 : E1 Y <= c b,  H2 : E2 W <= g e,  and the goal is E3 X <= g b.
     E1 E2 (X e) <= E2 h (E1 Y) + E1 b (E2 W)    T1
       <= E2 h (c b) + E1 b (g e)    A1, A2
       <= (E2 + 1) (g e) b + E1 b (g e)    C: E2 (c h) <= (E2 + 1) (g e), which is H2 again, c h - g e being <= W (B)
       = (E1 + E2 + 1) (g b) e    D, from which e is then cancelled *)
  assert (T1 : E1 * E2 * (X * e) <= E1 * E2 * (Y * h + W * b)) by (apply Z.mul_le_mono_nonneg_l; [apply Z.mul_nonneg_nonneg; assumption|exact T]).
  assert (A1 : E2 * h * (E1 * Y) <= E2 * h * (c * b)) by (apply Z.mul_le_mono_nonneg_l; [apply Z.mul_nonneg_nonneg; lia|exact H1]).
  assert (A2 : E1 * b * (E2 * W) <= E1 * b * (g * e)) by (apply Z.mul_le_mono_nonneg_l; [apply Z.mul_nonneg_nonneg; lia|exact H2]).
  assert (B : E2 * (c * h - g * e) <= E2 * W) by (apply Z.mul_le_mono_nonneg_l; [assumption|lia]).
  assert (C : b * (E2 * (c * h)) <= b * ((E2 + 1) * (g * e))) by (apply Z.mul_le_mono_nonneg_l; lia).
  assert (D : E1 * E2 * X * e <= (E1 + E2 + 1) * (g * b) * e) by lia. apply Z.mul_le_mono_pos_r in D; [|assumption].
  apply (Z.mul_le_mono_nonneg_r _ _ X) in HE; [|apply Z.abs_nonneg].       (* E3 (E1 + E2 + 1) X <= E1 E2 X, which D bounds *)
  apply Z.mul_le_mono_pos_r with (p := E1 + E2 + 1); lia.
Qed.

Lemma trunc_near E x y : wf x -> wf y -> 0 <= fst x -> 0 <= E -> near E x y ->
  E * Z.abs (to_int x * snd y - fst y) <= fst y + E * snd y.
Proof.
  unfold near, wf, to_int. destruct x as [a b], y as [c e]. cbn [fst snd]. intros Hb He Ha HE H.
  rewrite Z.quot_div_nonneg by lia. pose proof (Z.div_mod a b ltac:(lia)). pose proof (Z.mod_pos_bound a b Hb). set (R := a / b) in *.
  assert (T : Z.abs ((R * e - c) * b) <= Z.abs ((R * b - a) * e) + Z.abs (a * e - c * b)) by (apply abs_sum; ring).
  rewrite !Z.abs_mul, (Z.abs_eq b), (Z.abs_eq e) in T by lia.
  assert (K : Z.abs (R * b - a) * e <= b * e) by (apply Z.mul_le_mono_nonneg_r; lia).
  assert (T' : Z.abs (R * e - c) * b <= b * e + Z.abs (a * e - c * b)) by lia.
  apply (Z.mul_le_mono_nonneg_l _ _ E) in T'; [|assumption].
  apply Z.mul_le_mono_pos_r with (p := b); lia.
Qed.

(* 2^-22: two roundings of 2^-24 each *)
Lemma backoff_step_near last f : 0 < last -> wf f -> 0 < fst f ->
  near (2 ^ 22) (fmul 24 (of_int 24 last) f) (last * fst f, 1 * snd f) /\ 0 < fst (fmul 24 (of_int 24 last) f).
Proof.
  intros Hl Wf Hf. destruct (rnd_near 24 (last, 1) ltac:(lia) Z.lt_0_1 Hl) as [N1 P1]. fold (of_int 24 last) in N1, P1.
  pose proof (rnd_wf 24 (last, 1)) as W1. fold (of_int 24 last) in W1.
  apply (near_scale _ _ _ (fst f) (snd f)) in N1; [|unfold wf in Wf; lia..]. cbn [fst snd] in N1.
  rewrite !(Z.mul_comm (fst f)), !(Z.mul_comm (snd f)) in N1.
  change (fmul 24 (of_int 24 last) f) with (rnd 24 (fst (of_int 24 last) * fst f, snd (of_int 24 last) * snd f)).
  set (x := (_ * fst f, _ * snd f)) in *.
  assert (Wx : wf x) by (apply Z.mul_pos_pos; assumption). assert (Px : 0 < fst x) by (apply Z.mul_pos_pos; assumption).
  destruct (rnd_near 24 x ltac:(lia) Wx Px) as [N2 P2]. split; [|exact P2].
  apply (near_trans (2 ^ 24) (2 ^ 24) _ _ _ _ N2 N1); auto; try (apply Z.leb_le; reflexivity).
  apply Z.mul_pos_pos; [exact Z.lt_0_1|assumption].
Qed.

Theorem backoff_step_accuracy last fn fd :
  0 < last -> 0 < fn -> 0 < fd ->
  let step := to_int (fmul 24 (of_int 24 last) (fn, fd)) in
  2 ^ 22 * Z.abs (step * fd - last * fn) <= last * fn + 2 ^ 22 * fd.
Proof.
  intros Hl Hfn Hfd. destruct (backoff_step_near last (fn, fd) Hl Hfd Hfn) as [N P].
  apply trunc_near in N; [|apply rnd_wf|apply Z.mul_pos_pos; [exact Z.lt_0_1|assumption]|lia|apply Z.pow_nonneg; lia].
  cbn [fst snd] in N. lia.
Qed.

Lemma fmul_unit_abs_le p t mB sB : 2 <= p -> between (- 1) 1 t -> 2 ^ (p - 1) <= mB < 2 ^ p ->
  fle (fmul p t (bval mB sB)) (bval mB sB) /\ fle (fneg (bval mB sB)) (fmul p t (bval mB sB)).
Proof.
  intros Hp (Wt & Lt & Ut) HmB. pose proof (pow2_gt0 (p - 1) ltac:(lia)).
  pose proof (bval_wf mB sB) as W. pose proof (bval_pos mB sB ltac:(lia)) as P. unfold wf, ge_int, le_int in *.
  apply (Z.mul_le_mono_nonneg_r _ _ (fst (bval mB sB) * snd (bval mB sB))) in Lt, Ut; [|apply Z.mul_nonneg_nonneg; lia..].
  apply rnd_abs_le; try assumption; [apply Z.mul_pos_pos; assumption|..]; unfold fle, fneg; cbn [fst snd]; lia.
Qed.

(* R is D * g up to 1/(2E) relative and one unit, g is 1 up to j = jn/jd and at most 2: R is D up to D j + D/E + 1 *)
Lemma jitter_error_sum E D R gn gd jn jd : 0 <= E -> 0 < D -> 0 < gd -> 0 < jd -> gn <= 2 * gd ->
  Z.abs (gn - gd) * jd <= jn * gd -> 2 * E * Z.abs (R * gd - D * gn) <= D * gn + 2 * E * gd ->
  E * jd * Z.abs (R - D) <= E * D * jn + D * jd + E * jd.
Proof.
  intros HE HD Hgd Hjd Hg HC HN.
  assert (T : Z.abs ((R - D) * gd) <= Z.abs (R * gd - D * gn) + Z.abs (D * (gn - gd))) by (apply abs_sum; ring).
  rewrite !Z.abs_mul, (Z.abs_eq gd), (Z.abs_eq D) in T by lia.
  set (X := Z.abs (R - D)) in T |- *. set (Y := Z.abs (R * gd - D * gn)) in T, HN. set (V := Z.abs (gn - gd)) in T, HC.
  (* Now T : X gd <= Y + D V,  HN : 2 E Y <= D gn + 2 E gd,  HC : V jd <= jn gd.  The goal times 2 gd:
     2 E jd (X gd) <= jd (2 E Y) + 2 (E D (V jd))    T1
       <= jd (D gn + 2 E gd) + 2 (E D (jn gd))    N1, C1
       <= jd (D (2 gd)) + jd (2 E gd) + 2 E D jn gd    G2 *)
  assert (T1 : 2 * E * jd * (X * gd) <= 2 * E * jd * (Y + D * V)) by (apply Z.mul_le_mono_nonneg_l; [apply Z.mul_nonneg_nonneg; lia|exact T]).
  assert (N1 : jd * (2 * E * Y) <= jd * (D * gn + 2 * E * gd)) by (apply Z.mul_le_mono_nonneg_l; [lia|exact HN]).
  assert (C1 : E * D * (V * jd) <= E * D * (jn * gd)) by (apply Z.mul_le_mono_nonneg_l; [apply Z.mul_nonneg_nonneg; lia|exact HC]).
  assert (G2 : jd * (D * gn) <= jd * (D * (2 * gd))) by (apply Z.mul_le_mono_nonneg_l; [lia|apply Z.mul_le_mono_nonneg_l; [lia|exact Hg]]).
  apply Z.mul_le_mono_pos_r with (p := 2 * gd); [lia|]. clear - T1 N1 C1 G2. lia.
Qed.

Theorem jitter_factor_envelope delay mJ sJ random :
  0 < delay -> 2 ^ 23 <= mJ < 2 ^ 24 -> fst (bval mJ sJ) < snd (bval mJ sJ) ->
  wf random -> 0 <= fst random < snd random ->
  let jf := bval mJ sJ in
  2 ^ 20 * snd jf * Z.abs (random_delay_factor delay jf random - delay)
  <= 2 ^ 20 * delay * fst jf + delay * snd jf + 2 ^ 20 * snd jf.
Proof.
  intros Hd HmJ Hlt1 Hw Hr jf. unfold random_delay_factor. fold jf in Hlt1.
  pose proof (bval_wf mJ sJ : wf jf) as Wj.
  (* u = (1 - 2 random) * jf has |u| <= jf < 1 *)
  destruct (fmul_unit_abs_le 24 _ mJ sJ ltac:(lia) (centred_draw 24 random ltac:(lia) Hw Hr) HmJ) as [Bu1 Bu2].
  fold jf in Bu1, Bu2. set (u := fmul 24 _ jf) in *. pose proof (rnd_wf 24 _ : wf u) as Wu.
  (* g = 1 + u before rounding, as the fraction gn / gd:  |g - 1| <= jf (HC), hence |g - 1| < 1 (Gn) and 0 < g <= 2 *)
  unfold fadd at 1. cbn [fst snd]. set (gn := 1 * snd u + fst u * 1). set (gd := 1 * snd u).
  unfold fle, fneg, wf in Bu1, Bu2, Wu, Wj. fold jf in Bu1, Bu2. cbn [fst snd] in Bu1, Bu2.
  assert (Gd : 0 < gd) by (subst gd; lia).
  assert (HC : Z.abs (gn - gd) * snd jf <= fst jf * gd) by (subst gn gd; lia).   (* gn - gd is fst u: Bu1, Bu2 *)
  assert (Gn : Z.abs (gn - gd) < gd).
  { (* |gn - gd| jd <= jn gd < jd gd, by HC and jn < jd *)
    apply Z.mul_lt_mono_pos_r with (p := snd jf); [exact Wj|]. apply (Z.mul_lt_mono_pos_r gd) in Hlt1; [lia|exact Gd]. }
  (* the rounded factor g' is within 2^-24 of g, the step within 2^-22 of delay * g', hence within 2^-21 of delay * g *)
  destruct (rnd_near 24 (gn, gd) ltac:(lia) Gd ltac:(cbn [fst]; lia)) as [N1 P1]. pose proof (rnd_wf 24 (gn, gd)) as W1. set (g' := rnd 24 (gn, gd)) in *.
  destruct (backoff_step_near delay g' Hd W1 P1) as [N2 P2].
  apply (near_scale _ _ _ delay 1) in N1; [|lia..]. cbn [fst snd] in N1.
  assert (N : near (2 ^ 21) (fmul 24 (of_int 24 delay) g') (delay * gn, 1 * gd)).
  { apply (near_trans (2 ^ 22) (2 ^ 24) _ _ _ _ N2 N1); [apply rnd_wf| | |apply Z.leb_le; reflexivity..];
      (apply Z.mul_pos_pos; [exact Z.lt_0_1|assumption]). }
  apply trunc_near in N; [|apply rnd_wf|apply Z.mul_pos_pos; [exact Z.lt_0_1|assumption]|lia|apply Z.pow_nonneg; lia].
  cbn [fst snd] in N. rewrite Z.mul_1_l in N. change (2 ^ 21) with (2 * 2 ^ 20) in N.
  (* N : the step is within 1/(2 2^20) of delay * g, and one unit for the truncation *)
  apply (jitter_error_sum (2 ^ 20) delay _ gn gd (fst jf) (snd jf));
    [apply Z.pow_nonneg; lia|exact Hd|exact Gd|exact Wj|lia (* g <= 2, by Gn *)|exact HC|exact N].
Qed.
