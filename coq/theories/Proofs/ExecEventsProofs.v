(* C16: policy events fire exactly in their situation.  Layer-level statements for an ARBITRARY inner layer and world;
   [kps w] is the list of (kind, stack position) of the events logged so far, newest first. *)
From FS Require Import Model.Exec Spec.Verdict Corr.ExecCorr Proofs.ExecProofs.

Definition kp (e : event) : evk * nat := (e_kind e, e_pos e).
Definition kps (w : world) : list (evk * nat) := map kp (w_trace w).

Lemma kps_stamp w c : kps (stamp w c) = kps w.
Proof. unfold kps, stamp. destruct (w_trace w) as [|e t] eqn:E; [rewrite E; reflexivity|]. reflexivity. Qed.
Lemma kps_emit w k q o aux : kps (emit w k q o aux) = (k, q) :: kps w.
Proof. reflexivity. Qed.
Lemma kps_ev w c k q r : kps (ev_with_result w c k q r) = (k, q) :: kps w.
Proof. unfold ev_with_result. rewrite kps_stamp. reflexivity. Qed.

(* What a listener that is not registered leaves out of the implementation's log is no policy's verdict event, so an
   automaton over (kind, position) pairs that ignores the other kinds reads the same from the filtered log. *)
Lemma lsn_keeps_verdict lsn e : lsn_keeps lsn e = false -> verdict_kind (e_kind e) = false.
Proof. unfold lsn_keeps. destruct (e_kind e); try discriminate; reflexivity. Qed.

Lemma blsn_keeps_verdict mask e : blsn_keeps mask e = false -> verdict_kind (e_kind e) = false.
Proof. unfold blsn_keeps. destruct (e_kind e); try discriminate; reflexivity. Qed.

Lemma fold_kp_filter {S} (step : evk * nat -> S -> S) (f : event -> bool) :
  (forall e s, f e = false -> step (kp e) s = s) ->
  forall l s, fold_left (fun s k => step k s) (map kp (filter f l)) s = fold_left (fun s k => step k s) (map kp l) s.
Proof.
  intros Hf. induction l as [|e l IH]; intros s; [reflexivity|]. cbn [filter]. destruct (f e) eqn:E; cbn [map fold_left]; [apply IH|].
  rewrite IH, (Hf e s E). reflexivity.
Qed.

(* C16: OnFull exactly when the bulkhead refuses *)
Theorem bulkhead_full_event_only_on_refusal pos inst mw (inner : layer) c w :
  let cap := fst (nth inst (w_bulkheads w) (0, 0)) in
  let held := snd (nth inst (w_bulkheads w) (0, 0)) in
  let setheld (w : world) (h : Z) :=
    set_insts w (w_breakers w) (w_limiters w) (upd inst (fun p => (fst p, h)) (w_bulkheads w)) (w_caches w) in
  (* arrives cancelled *)
  (forall e, copy_err w c = Some e -> bulkhead_layer pos inst mw inner c w = (failure_result (cancel_error w c), w))
  (* admitted *)
  /\ (copy_err w c = None -> held < cap ->
      kps (snd (bulkhead_layer pos inst mw inner c w)) = kps (snd (inner c (setheld w (held + 1)))))
  (* full, no waiting *)
  /\ (copy_err w c = None -> cap <= held -> mw = 0 ->
      fst (bulkhead_layer pos inst mw inner c w) = failure_result EFull
      /\ kps (snd (bulkhead_layer pos inst mw inner c w)) = (KFull, pos) :: kps w)
  (* full, waiting *)
  /\ (copy_err w c = None -> cap <= held -> mw <> 0 ->
      let i := fst (wait w mw (Some c)) in let w1 := snd (wait w mw (Some c)) in
      (i = true -> kps (snd (bulkhead_layer pos inst mw inner c w)) = kps w1
                   /\ fst (bulkhead_layer pos inst mw inner c w)
                      = failure_result (cancel_error w1 c))
      /\ (i = false -> fst (bulkhead_layer pos inst mw inner c w) = failure_result EFull
                       /\ kps (snd (bulkhead_layer pos inst mw inner c w)) = (KFull, pos) :: kps w1)).
Proof.
  cbv zeta. unfold bulkhead_layer. destruct (nth inst (w_bulkheads w) (0, 0)) as [cap held]. cbn [fst snd].
  split; [|split; [|split]].
  - intros e He. rewrite He. reflexivity.
  - (* the release afterwards logs nothing *) intros Hc Hlt. rewrite Hc. destruct (held <? cap) eqn:E; [|lia].
    destruct (inner c _) as [r w2]. destruct (nth inst (w_bulkheads w2) (0, 0)) as [cap2 held2]. reflexivity.
  - intros Hc Hge Hm. rewrite Hc. destruct (held <? cap) eqn:E; [lia|]. subst mw. cbn [Z.eqb fst snd].
    rewrite kps_stamp. split; reflexivity.
  - intros Hc Hge Hm. rewrite Hc. destruct (held <? cap) eqn:E; [lia|]. destruct (mw =? 0) eqn:E0; [lia|].
    destruct (wait w mw (Some c)) as [i w1]. cbn [fst snd]. split; intros Hi; subst i; cbn [fst snd].
    + (* the wait was cut short *) split; reflexivity.
    + (* the wait ran out *) rewrite kps_stamp. split; reflexivity.
Qed.

(* C16: what a retry policy's verdict on a failed attempt logs *)
Theorem retry_failure_events cfg pos c r w :
  let w0 := pause (ev_with_result w c KPolFailure pos r) (r_lsn_dur cfg) in
  let failed := rs_failed (get_rstate w pos) + 1 in
  let exceeded := (negb (r_max_retries cfg =? -1) && (r_max_retries cfg <? failed))
                  || (negb (r_max_duration cfg =? 0) && (r_max_duration cfg <? w_now w0 - w_start w0)) in
  let abortable := is_abortable (r_abort cfg) (pr_out r) in
  kps (snd (retry_on_failure cfg pos c r w)) =
    (if exceeded && negb abortable then [(KRetriesExceeded, pos)] else [])
    ++ (if abortable then [(KAbort, pos)] else []) ++ kps w0
  /\ (r_lsn_dur cfg <= 0 -> kps w0 = (KPolFailure, pos) :: kps w)
  /\ (abortable || exceeded = true -> pr_done (fst (retry_on_failure cfg pos c r w)) = true)
  /\ rs_exceeded (get_rstate (snd (retry_on_failure cfg pos c r w)) pos) = exceeded.
Proof.
  cbv zeta. rewrite retry_on_failure_ledger, retry_on_failure_eq. cbv zeta.
  set (ex := _ || _). set (ab := is_abortable _ _). cbn [fst snd]. split; [|split; [|split]].
  - destruct ex, ab; cbn [andb negb app]; rewrite ?kps_ev; reflexivity.
  - intros Hd. unfold pause. destruct (0 <? r_lsn_dur cfg) eqn:E; [lia|apply kps_ev].
  - destruct ex, ab, (r_return_last cfg); cbn; intros Hx; first [reflexivity|discriminate Hx].
  - (* [retry_on_failure_ledger] has rewritten it *) reflexivity.
Qed.

(* C16: OnTimeoutExceeded and the mark [sc_fired] come from the same callback *)
Theorem timeout_event_iff_fired_step w s : (s < length (w_scopes w))%nat ->
  kps (fire_timeout w s) = (KTimeoutExceeded, sc_pos (get_scope w s)) :: kps w
  /\ sc_fired (get_scope (fire_timeout w s) s) = true.
Proof.
  intros Hs. unfold fire_timeout.
  set (w2 := emit (set_scopes w _ (w_seq w) (w_ext w)) KTimeoutExceeded _ _ _).
  assert (F2 : sc_fired (get_scope w2 s) = true)
    by (unfold get_scope; cbn [w2 emit w_scopes set_trace set_scopes]; rewrite nth_upd_same by exact Hs; reflexivity).
  (* after w2 Cancel may write the cell, the copy and [sc_done] of s: neither the log nor [sc_fired] *)
  destruct (copy_err w2 _); [split; [reflexivity|exact F2]|].
  unfold mark_done. destruct (sc_done _); [split; [reflexivity|exact F2]|]. rewrite fired_upd by reflexivity. split; [reflexivity|exact F2].
Qed.

Theorem timeout_event_marks_fired w s : (s < length (w_scopes w))%nat ->
  exists rest, kps (fire_timeout w s) = (KTimeoutExceeded, sc_pos (get_scope w s)) :: rest /\ rest = kps w /\ sc_fired (get_scope (fire_timeout w s) s) = true.
Proof. intros H. exists (kps w). destruct (timeout_event_iff_fired_step w s H). auto. Qed.

(* C08: a bulkhead that turns a cancelled execution away reports the cause *)
Lemma cancel_error_is_cause w c cr e : is_canceled w c = Some cr -> pr_err cr = Some e -> cancel_error w c = e.
Proof. intros H He. unfold cancel_error. rewrite H, He. reflexivity. Qed.

Theorem bulkhead_cancelled_reports_cause pos inst mw (inner inner' : layer) c w :
  (forall cr e, is_canceled w c = Some cr -> pr_err cr = Some e ->
     bulkhead_layer pos inst mw inner c w = (failure_result e, w))
  /\ (copy_err w c = None -> fst (nth inst (w_bulkheads w) (0, 0)) <= snd (nth inst (w_bulkheads w) (0, 0)) -> mw <> 0 ->
      fst (wait w mw (Some c)) = true ->
      let w1 := snd (wait w mw (Some c)) in
      bulkhead_layer pos inst mw inner c w = bulkhead_layer pos inst mw inner' c w
      /\ forall cr e, is_canceled w1 c = Some cr -> pr_err cr = Some e ->
           bulkhead_layer pos inst mw inner c w = (failure_result e, w1)).
Proof.
  unfold bulkhead_layer. destruct (nth inst (w_bulkheads w) (0, 0)) as [cap held]. cbn [fst snd]. split.
  - (* cancelled (H') means that [copy_err], which the layer tests first, is Some *)
    intros cr e H He. pose proof H as H'. unfold is_canceled in H'. destruct (copy_err w c) as [e0|] eqn:Ec; [|discriminate H'].
    rewrite (cancel_error_is_cause w c cr e H He). reflexivity.
  - intros Hc Hge Hm Hi. rewrite Hc. destruct (held <? cap) eqn:E; [lia|]. destruct (mw =? 0) eqn:E0; [lia|].
    destruct (wait w mw (Some c)) as [i w1]. cbn [fst snd] in *. subst i. split; [reflexivity|].
    intros cr e H He. rewrite (cancel_error_is_cause w1 c cr e H He). reflexivity.
Qed.

(* finding F16: the context's error, which the bulkhead reported before the fix, is not the cause *)
Theorem bulkhead_reported_context_error_before_fix :
  exists w c, copy_err w c = Some ECtxCanceled /\ cancel_error w c = EExecCanceled.
Proof.
  exists (fire_ext (fresh_world 0 None CKNone [] [] [] [] []) EExecCanceled), 0%nat. vm_compute. split; reflexivity.
Qed.
