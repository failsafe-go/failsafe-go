(* C19: the hedge attempts' hand-off never blocks.
   Each field of the state moves by an equation of its own per step; the run-level results are those equations summed
   over the trace, and the channel bound is an invariant that needs room for one value. *)
From FS Require Import Model.Ledger Proofs.Trace.

(* ghost: how many attempts win the compare-and-swap on resultSent (and therefore send) along a trace *)
Definition h_wins_step (s : hstate) (x : hstep) : nat :=
  match x with
  | HFinish w => if w && negb (hs_sent s) then 1 else 0
  | HRecv => 0
  end.

Fixpoint h_wins (s : hstate) (tr : list hstep) : nat :=
  match tr with
  | [] => 0
  | x :: tr' => h_wins_step s x + h_wins (h_step s x) tr'
  end.

Definition is_finish (x : hstep) : bool := match x with HFinish _ => true | HRecv => false end.
Definition wants (x : hstep) : bool := match x with HFinish w => w | HRecv => false end.

Lemma h_step_sent s x : hs_sent (h_step s x) = hs_sent s || wants x.
Proof.
  destruct x as [w|]; cbn [h_step wants].
  - destruct w, (hs_sent s); cbn [andb negb]; [| destruct (Nat.ltb _ _) | |]; reflexivity.
  - rewrite orb_false_r. destruct (hs_chan s); reflexivity.
Qed.

Lemma h_step_count s x : hs_count (h_step s x) = hs_count s + (if is_finish x then 1 else 0).
Proof.
  destruct x as [w|]; cbn [h_step is_finish].
  - destruct (w && negb (hs_sent s)); [destruct (Nat.ltb _ _)|]; cbn [hs_count]; lia.
  - destruct (hs_chan s); cbn [hs_count]; lia.
Qed.

Definition hinv (cap : nat) (s : hstate) : Prop :=
  hs_cap s = cap /\ hs_blocked s = 0 /\ hs_chan s <= (if hs_sent s then 1 else 0).

Lemma hinv_step cap s x : 1 <= cap -> hinv cap s -> hinv cap (h_step s x).
Proof.
  unfold hinv. intros Hc (Hcap & Hb & Hl). destruct x as [w|]; cbn [h_step].
  - destruct (hs_sent s); [rewrite andb_false_r; cbn; auto|].
    destruct w; cbn [andb negb]; [|cbn; auto].
    replace (hs_chan s) with 0 by lia. rewrite Hcap. destruct cap; [lia|]. cbn. auto.
  - destruct (hs_chan s) eqn:Ec; [rewrite Ec; auto|]. cbn. repeat split; auto. destruct (hs_sent s); lia.
Qed.

Lemma h_run_inv cap tr : 1 <= cap -> hinv cap (h_run cap tr).
Proof.
  intros Hc. apply (fold_left_inv h_step (hinv cap)); [intros s x; apply hinv_step, Hc|]. unfold hinv. cbn. auto.
Qed.

Theorem hedge_send_never_blocks cap tr : 1 <= cap -> hs_blocked (h_run cap tr) = 0.
Proof. intros Hc. apply (h_run_inv cap tr Hc). Qed.

Example unbuffered_channel_leaks : hs_blocked (h_run 0 [HFinish true]) = 1.
Proof. reflexivity. Qed.

Lemma h_run_count tr : forall s, hs_count (fold_left h_step tr s) = hs_count s + List.length (filter is_finish tr).
Proof.
  induction tr as [|x tr IH]; intros s; cbn [fold_left filter]; [cbn; lia|].
  rewrite IH, h_step_count. destruct (is_finish x); cbn [List.length]; lia.
Qed.

Lemma h_wins_from tr : forall s, h_wins s tr = if negb (hs_sent s) && existsb wants tr then 1 else 0.
Proof.
  induction tr as [|x tr IH]; intros s; cbn [h_wins existsb]; [now rewrite andb_false_r|].
  rewrite IH, h_step_sent. destruct x as [[]|]; cbn [h_wins_step wants]; destruct (hs_sent s); reflexivity.
Qed.

Theorem hedge_one_winner cap tr : h_wins (h_init cap) tr = (if existsb wants tr then 1 else 0).
Proof. apply h_wins_from. Qed.

Corollary hedge_at_most_one_winner cap tr : h_wins (h_init cap) tr <= 1.
Proof. rewrite hedge_one_winner. destruct (existsb wants tr); lia. Qed.

Theorem hedge_channel_bound cap tr : 1 <= cap ->
  hs_chan (h_run cap tr) <= 1 /\ (hs_sent (h_run cap tr) = false -> hs_chan (h_run cap tr) = 0).
Proof.
  intros Hc. destruct (h_run_inv cap tr Hc) as (_ & _ & H). destruct (hs_sent _); split; try discriminate; lia.
Qed.

Example one_winner_nonvacuous :
  h_wins (h_init 1) [HFinish false; HFinish true; HRecv; HFinish true] = 1 /\
  hs_count (h_run 1 [HFinish false; HFinish true; HRecv; HFinish true]) = 3.
Proof. split; reflexivity. Qed.
