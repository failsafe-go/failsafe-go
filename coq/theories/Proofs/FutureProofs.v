(* C15: two small protocols, each with an invariant that every step keeps
   (finv for the publication, kinv for Cancel against the retry loop) and from which the result is read off. *)
From FS Require Import Model.Future Proofs.Trace.

Definition finv (s : fut) : Prop :=
  match f_r s with
  | RExecuting | RListened => f_stored s = false /\ f_flag s = false /\ f_closed s = 0
  | RStored => f_stored s = true /\ f_flag s = false /\ f_closed s = 0
  | RFlagged => f_stored s = true /\ f_flag s = true /\ f_closed s = 0
  | RClosed => f_stored s = true /\ f_flag s = true /\ f_closed s = 1
  end /\ (forall b, In b (f_gets s) -> b = true).

Lemma finv_init : finv fut_init.
Proof. split; [cbn; auto|intros b []]. Qed.

Lemma finv_step s x : finv s -> finv (fut_step s x).
Proof.
  intros [H Hg]. destruct s as [r st fl cl gs]. cbn [f_r f_stored f_flag f_closed f_gets] in *.
  destruct x; destruct r; cbn [fut_step f_r f_stored f_flag f_closed f_gets];
    destruct H as (Hs & Hf & Hc); subst;
    try (split; [cbn; auto|exact Hg]).
  all: cbn [Nat.ltb Nat.leb]; split; cbn [f_r f_stored f_flag f_closed f_gets]; auto.
  intros b [<-|Hb]; [reflexivity|apply Hg; exact Hb].
Qed.

Theorem done_closed_once_after_result tr :
  let s := fut_run tr in
  f_closed s <= 1 /\ (f_closed s = 1 -> f_stored s = true /\ f_r s = RClosed) /\ (forall b, In b (f_gets s) -> b = true).
Proof.
  cbv zeta. pose proof (fold_left_inv fut_step finv finv_step tr fut_init finv_init) as [H Hg].
  fold (fut_run tr) in *.
  destruct (f_r (fut_run tr)) eqn:E; destruct H as (Hs & Hf & Hc); rewrite Hc; repeat split; auto; try discriminate.
Qed.

Theorem isdone_iff_closed tr : is_done true (fut_run tr) = done_closed (fut_run tr).
Proof. reflexivity. Qed.

(* finding F4: the flag is set before the channel is closed *)
Theorem isdone_before_close_prefix : exists tr, is_done false (fut_run tr) = true /\ done_closed (fut_run tr) = false.
Proof. exists [FExecute; FStore; FFlag]. split; reflexivity. Qed.

Definition kinv (s : crace) : bool :=
  match k_ctx s, k_cell s, k_report s with
  | true, VExecCanceled, (RepNone | RepExecCanceled) => true
  | false, _, RepNone => true
  | _, _, _ => false
  end.

Lemma kinv_step s x : (match x with KA | KB => false | _ => true end) = true -> kinv s = true -> kinv (crace_step s x) = true.
Proof. destruct s as [c k a r]. destruct x, c, k, a, r; cbn; intros; try discriminate; reflexivity. Qed.

Theorem async_cancel_attribution tr : fixed_trace tr = true ->
  k_report (crace_run tr) = RepNone \/ k_report (crace_run tr) = RepExecCanceled.
Proof.
  intros Hf.
  pose proof (fold_left_inv_on crace_step (fun s => kinv s = true) _ kinv_step tr crace_init Hf eq_refl) as H.
  fold (crace_run tr) in H.
  destruct (crace_run tr) as [c k a r]. cbn in *. destruct k, c, r; try discriminate; auto.
Qed.

(* finding F3: between Cancel's two steps the retry loop clears the cell *)
Theorem async_cancel_misattributed_prefix : k_report (crace_run [KA; KInit; KB; KCheck]) = RepCtxCanceled.
Proof. reflexivity. Qed.
