(* C09 inside a stack: the result a hedged run hands to the policies around it ([Won]), for the hedge layer of
   Model/Exec.v started in ANY world.  The invariant [HW]: what has been logged since the run began accounts for the
   state of the run. *)
From FS Require Import Model.Exec Proofs.ExecProofs Proofs.ExecSteps Proofs.ExecHedgeProofs.
From Coq Require Import ZifyBool.

(* what an event says, without the counters and instants it carries *)
Definition ekey : Type := evk * nat * outcome.
Definition key (e : event) : ekey := (e_kind e, e_pos e, e_out e).
Definition keys (w : world) : list ekey := map key (w_trace w).
Definition is_fnend (k : ekey) : bool := match fst (fst k) with KFnEnd => true | _ => false end.
Definition cntE (l : list ekey) : nat := length (filter is_fnend l).

Lemma cntE_app a b : cntE (a ++ b) = (cntE a + cntE b)%nat.
Proof. unfold cntE. rewrite filter_app, app_length. reflexivity. Qed.

Definition tr_ext (w w' : world) : Prop := exists p, keys w' = p ++ keys w.

Lemma ext_refl w : tr_ext w w. Proof. exists []. reflexivity. Qed.
Lemma ext_trans a b c : tr_ext a b -> tr_ext b c -> tr_ext a c.
Proof. intros [p Hp] [q Hq]. exists (q ++ p). rewrite Hq, Hp, app_assoc. reflexivity. Qed.
Lemma ext_frame w w' : w_trace w' = w_trace w -> tr_ext w w'.
Proof. intros H. exists []. unfold keys. rewrite H. reflexivity. Qed.
Lemma ext_emit w k q o aux : True -> tr_ext w (emit w k q o aux).
Proof. intros _. exists [(k, q, o)]. reflexivity. Qed.
Lemma keys_stamp w c : keys (stamp w c) = keys w.
Proof. unfold keys, stamp. destruct (w_trace w) as [|e t] eqn:E; [rewrite E; reflexivity|]. reflexivity. Qed.
Lemma ext_stamp w c : tr_ext w (stamp w c).
Proof. exists []. rewrite keys_stamp. reflexivity. Qed.

Lemma ext_log : log_rel tr_ext (fun _ _ => True) (fun _ => True).
Proof.
  split; [apply ext_refl|apply ext_trans|intros w w' H _; apply ext_frame, H|intros; apply ext_frame; reflexivity
         |intros w k q o aux _; apply ext_emit; exact I|apply ext_stamp|intros; exact I].
Qed.

Lemma cancel_others_hs started : forall w i winner, w_hs (cancel_others w started i winner) = w_hs w.
Proof. apply (cancel_others_same w_hs); reflexivity. Qed.

Lemma finish_bg_keys w b : keys (finish_bg w b) = (KFnEnd, bg_pos b, bg_out b) :: keys w.
Proof.
  (* w3: the event is logged; after it only [w_hs] may be written *)
  unfold finish_bg. cbv zeta. set (w3 := stamp (emit _ KFnEnd _ _ 0) _).
  transitivity (keys w3); [clearbody w3; destruct (Nat.eqb _ _); reflexivity|]. unfold w3. rewrite keys_stamp. reflexivity.
Qed.

(* [pre]: what has been logged since the run began *)
Definition accounts (cond : list cond) (mx : nat) (pre : list ekey) (hs : hstate) : Prop :=
  hs_cond hs = cond /\ hs_max hs = mx /\ (hs_count hs <= cntE pre)%nat
  /\ forall i o, hs_acc hs = Some (i, o) ->
       (exists q, In (KFnEnd, q, o) pre) /\ (is_abortable cond o = true \/ (S mx <= cntE pre)%nat).

Lemma accounts_more cond mx p pre hs : accounts cond mx pre hs -> accounts cond mx (p ++ pre) hs.
Proof.
  intros (Hc & Hm & Hn & Ha). unfold accounts. rewrite cntE_app. split; [exact Hc|]. split; [exact Hm|]. split; [lia|].
  intros i o Hi. destruct (Ha i o Hi) as [[q Hq] Hwhy]. split.
  - exists q. apply in_or_app. right. exact Hq.
  - destruct Hwhy as [Hab|Hc']; [left; exact Hab|right; lia].
Qed.

Lemma accounts_return cond mx pre hs q b :
  accounts cond mx pre hs -> accounts cond mx ((KFnEnd, q, bg_out b) :: pre) (hs_return hs b).
Proof.
  intros H. destruct (accounts_more cond mx [(KFnEnd, q, bg_out b)] pre hs H) as (_ & _ & _ & Ha). destruct H as (Hc & Hm & Hn & _).
  unfold accounts, hs_return. cbv zeta. cbn [hs_cond hs_max hs_count hs_acc].
  change (cntE ([(KFnEnd, q, bg_out b)] ++ pre)) with (S (cntE pre)) in Ha. change (cntE (_ :: pre)) with (S (cntE pre)).
  split; [exact Hc|]. split; [exact Hm|]. split; [lia|]. intros i o. destruct (_ && _) eqn:T; [|apply Ha].
  (* taken: it matches the cancel conditions, or else the count (T) has reached maxHedges+1 *)
  intros [= _ <-]. split; [exists q; left; reflexivity|]. rewrite <- Hc.
  destruct (is_abortable (hs_cond hs) (bg_out b)); [left; reflexivity|right; lia].
Qed.

(* [old]: what the trace said when the run began *)
Definition HW (cond : list cond) (mx : nat) (old : list ekey) (w : world) : Prop :=
  exists pre, keys w = pre ++ old /\ accounts cond mx pre (w_hs w).

Lemma HW_ext cond mx old w w' : HW cond mx old w -> tr_ext w w' -> w_hs w' = w_hs w -> HW cond mx old w'.
Proof.
  intros (pre & Hk & Ha) [p Hp] Hs. exists (p ++ pre). rewrite Hs, Hp, Hk, app_assoc. split; [reflexivity|apply accounts_more, Ha].
Qed.

Lemma HW_silent cond mx old w w' :
  HW cond mx old w -> steps False no_event no_write no_call w w' -> w_hs w' = w_hs w -> HW cond mx old w'.
Proof. intros H Hs. apply (HW_ext _ _ _ _ _ H), (silent_log ext_log), Hs. Qed.

Lemma HW_finish_bg cond mx old w b : HW cond mx old w -> HW cond mx old (finish_bg w b).
Proof.
  intros (pre & Hk & Ha). exists ((KFnEnd, bg_pos b, bg_out b) :: pre). rewrite finish_bg_keys, finish_bg_hs, Hk. split; [reflexivity|].
  destruct (Nat.eqb _ _); [apply accounts_return, Ha|apply (accounts_more _ _ [_]), Ha].
Qed.

Lemma HW_advance cond mx old fuel w t intr acc : HW cond mx old w -> HW cond mx old (snd (advance fuel w t intr acc)).
Proof.
  (* [auto] also closes the cases of the clock and the schedule-dependence flag, which HW does not read *)
  revert w t intr acc. apply (advance_rel (fun w w' => HW cond mx old w -> HW cond mx old w')); auto using HW_finish_bg.
  - intros w t s _ H. apply (HW_silent _ _ _ _ _ H); [apply st_fire_timeout, steps_refl|apply (fire_timeout_same w_hs); reflexivity].
  - intros w e H. apply (HW_silent _ _ _ _ _ H); [apply st_fire_ext, steps_refl|apply (fire_ext_same w_hs); reflexivity].
  - intros w H. apply (HW_silent _ _ _ _ _ H); [apply st_refresh_bg, steps_refl|apply (refresh_bg_same w_hs); reflexivity].
Qed.

(* what the hedged run hands on *)
Definition Won (cond : list cond) (mx : nat) (old : list ekey) (c : nat) (r : presult) (w' : world) : Prop :=
  w_oof w' = true
  \/ is_canceled w' c = Some r
  \/ exists pre o q, keys w' = pre ++ old /\ r = all_true o /\ In (KFnEnd, q, o) pre
       /\ (is_abortable cond o = true \/ (S mx <= cntE pre)%nat).

Theorem hloop_winner cfg pos total c old k st w r w' ts : hloop cfg pos total c k st w r w' ts ->
  HW (hg_cancel cfg) (hg_max cfg) old w -> Won (hg_cancel cfg) (hg_max cfg) old c r w'.
Proof.
  (* a turn keeps HW: starting the attempt is silent and leaves [w_hs]; then the wait *)
  assert (Ht : forall k w w7, hedge_turn pos total c k w w7 -> HW (hg_cancel cfg) (hg_max cfg) old w -> HW (hg_cancel cfg) (hg_max cfg) old w7).
  { intros k0 w0 w7 (f & t & ->) H. apply HW_advance, (HW_silent _ _ _ _ _ H); [|apply hedge_start_hs].
    apply (hedge_start_steps no_inv no_inv_kept). split; [intros []|exact I].   (* [entry False no_inv c w0] asks nothing *) }
  induction 1 as [k st w|k st w w7 cr H7 Ec|k st w w7 idx out H7 _ Ea|k st w w7 H7|k st w w7 r w' ts H7 _ _ _ _ _ IH]; intros H;
    try specialize (Ht _ _ _ H7 H).   (* Ht : HW ... w7, except in HR_fuel *)
  - (* HR_fuel *) left. reflexivity.
  - right. left. exact Ec.
  - (* HR_accepted; cancelling the losers only adds to the log (E) *)
    right. right. destruct Ht as (pre & Hk & _ & _ & _ & Ha). destruct (Ha idx out Ea) as [[q Hq] Hwhy].
    assert (E : tr_ext w7 (refresh_bg (cancel_others (clear_acc w7) (started_next st w) 0 idx)))
      by (apply (silent_log ext_log), st_refresh_bg, st_cancel_others, steps_one, S_hs; cbn [hs_grp]; lia).
    destruct E as [p Hp]. exists (p ++ pre), out, q. rewrite Hp, Hk, app_assoc, cntE_app.
    split; [reflexivity|]. split; [reflexivity|]. split; [apply in_or_app; right; exact Hq|].
    destruct Hwhy as [Hab|Hn]; [left; exact Hab|right; lia].
  - (* HR_spent *) left. reflexivity.
  - apply IH, Ht.
Qed.

Theorem hedge_layer_winner pos total cfg c w :
  Won (hg_cancel cfg) (hg_max cfg) (keys w) c (fst (hedge_layer pos total cfg c w)) (snd (hedge_layer pos total cfg c w)).
Proof.
  destruct (hedge_layer_hloop pos total cfg c w) as [ts H]. apply (hloop_winner _ _ _ _ (keys w) _ _ _ _ _ _ H).
  exists []. split; [reflexivity|]. repeat split; [apply Nat.le_0_l|discriminate|discriminate].
Qed.
