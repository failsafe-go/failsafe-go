(* Checkers of Corr/ExecCheckers.v against the model: the statistics checker of C17 accepts every model log; C16's
   pairing checker [retry_pairs_ok] is the automaton [st] of Proofs/ExecRetryEvents.v read in the order the log was
   written. *)
From FS Require Import Model.Exec Proofs.ExecProofs Proofs.ExecSteps Proofs.ExecStats Corr.ExecCheckers.

Lemma trace_ok_suffix a : forall b, trace_ok (a ++ b) -> trace_ok b.
Proof. induction a as [|e a IH]; intros b H; [exact H|]. cbn [app trace_ok] in H. apply IH. tauto. Qed.

Lemma kind_is_counted k e : counted k = true -> kind_is k e = is_kind k e.
Proof. unfold kind_is, is_kind. destruct k; try discriminate; intros _; destruct (e_kind e); reflexivity. Qed.
Lemma bump_is k e : bump k (e_kind e) = if is_kind k e then 1 else 0.
Proof. reflexivity. Qed.

Lemma cntk_step k e seen : (if is_kind k e then cntk k seen + 1 else cntk k seen) = cntk k (e :: seen).
Proof. rewrite cntk_cons, bump_is. destruct (is_kind k e); lia. Qed.

Lemma stats_ok_sound l : forall seen tlast,
  trace_ok (rev l ++ seen) ->
  (match seen with e :: _ => tlast = e_time e | [] => tlast <= match l with e :: _ => e_time e | [] => tlast end end) ->
  stats_ok seen (cntk KRetry seen) (cntk KHedge seen) (cntk KFnEnd seen) tlast l = true.
Proof.
  induction l as [|e l IH]; intros seen tlast Hok Ht; [reflexivity|].
  cbn [rev] in Hok. rewrite <- app_assoc in Hok. cbn [app] in Hok.
  pose proof (trace_ok_suffix _ _ Hok) as He. cbn [trace_ok] in He. destruct He as (Ha & Hr & Hh & Hx & Htime & _).
  cbn [stats_ok]. rewrite !kind_is_counted by reflexivity.
  rewrite cntk_cons, bump_is in Hr, Hh, Hx.
  rewrite !cntk_step. rewrite (IH (e :: seen) (e_time e) Hok eq_refl).
  assert (Hle : tlast <= e_time e) by (destruct seen as [|e' ?]; [exact Ht|subst tlast; exact Htime]).
  rewrite !cntk_cons, !bump_is. destruct (e_kind e); cbn [andb]; lia.
Qed.

(* C17: the whole log, i.e. with every completion listener registered *)
Theorem c17_checker_accepts_model fuel stack now ext key b l k c script :
  let evs := rev (w_trace (drain (snd (execute fuel stack (fresh_world now ext key b l k c script))))) in
  stats_ok [] 0 0 0 (match evs with e :: _ => e_time e | [] => 0 end) evs = true.
Proof.
  cbv zeta. set (tr := w_trace _).
  (* the empty prefix: the three zeros of the statement are its counts *)
  apply (stats_ok_sound (rev tr) []); [|destruct (rev tr); lia].
  rewrite rev_involutive, app_nil_r. apply execution_statistics_exact.
Qed.

From FS Require Import Proofs.ExecRetryEvents.

Definition scan (pos : nat) (s : option bool) (l : list event) : option bool := fold_left (fun s e => stp pos e s) l s.

Lemma scan_none pos l : scan pos None l = None.
Proof. induction l as [|e l IH]; [reflexivity|]. cbn [scan fold_left stp]. exact IH. Qed.

Lemma st_scan pos tr : st pos tr = scan pos (Some false) (rev tr).
Proof.
  induction tr as [|e tr IH]; [reflexivity|]. cbn [st rev]. unfold scan. rewrite fold_left_app. cbn [fold_left].
  fold (scan pos (Some false) (rev tr)). rewrite <- IH. reflexivity.
Qed.

Lemma retry_pairs_scan pos l : forall b, retry_pairs_ok pos b l = true <-> scan pos (Some b) l <> None.
Proof.
  induction l as [|e l IH]; intros b; cbn [retry_pairs_ok scan fold_left]; [split; [discriminate|reflexivity]|].
  fold (scan pos (stp pos e (Some b)) l). unfold stp, kind_is.
  destruct (Nat.eqb (e_pos e) pos); cbn [andb]; [|apply IH].
  destruct (e_kind e); cbn [evk_code Z.eqb Pos.eqb]; try apply IH.
  destruct b; cbn [andb]; [apply IH|]. rewrite scan_none. split; [discriminate|intros H; contradiction].
Qed.
