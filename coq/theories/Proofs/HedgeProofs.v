(* C09.  Every exit of [hedge_loop] reports its starts and cancellations as tabulated lists: the first n instants of the
   schedule [sched] (t0 plus the first k hedge delays) and "all of the n but the winner" ([good_tabulated]).  So the loop
   is walked once with: the starts so far are the schedule, the runners are attempts already started. *)
From FS Require Import Model.Hedge.

Fixpoint sched (c : hcfg) (t0 : Z) (k : nat) : Z :=
  match k with O => t0 | S k' => sched c t0 k' + nth_delay c k' end.

Definition good (c : hcfg) (t0 : Z) (o : hobs) : Prop :=
  (length (ho_starts o) <= S (h_max c))%nat
  /\ (forall i, (i < length (ho_starts o))%nat -> nth i (ho_starts o) 0 = sched c t0 i)
  /\ (match ho_winner o with
      | Some w => (w < length (ho_starts o))%nat /\ length (ho_cancelled o) = length (ho_starts o)
                  /\ forall i, (i < length (ho_starts o))%nat -> nth i (ho_cancelled o) false = negb (Nat.eqb i w)
      | None => True
      end).

Lemma nth_map_seq {A} (f : nat -> A) n i d : (i < n)%nat -> nth i (map f (seq 0 n)) d = f i.
Proof.
  intros Hi. rewrite (nth_indep _ d (f 0%nat)) by (rewrite map_length, seq_length; exact Hi).
  rewrite map_nth, seq_nth by exact Hi. reflexivity.
Qed.

Lemma good_tabulated c t0 n o :
  (n <= S (h_max c))%nat -> ho_starts o = map (sched c t0) (seq 0 n) ->
  match ho_winner o with
  | Some w => (w < n)%nat /\ ho_cancelled o = map (fun i => negb (Nat.eqb i w)) (seq 0 n)
  | None => True
  end -> good c t0 o.
Proof.
  intros Hn Hs Hw. unfold good. rewrite Hs, map_length, seq_length.
  split; [exact Hn|]. split; [intros i; apply nth_map_seq|].
  destruct (ho_winner o) as [w|]; [|exact I]. destruct Hw as [Hw ->]. rewrite map_length, seq_length.
  split; [exact Hw|]. split; [reflexivity|]. intros i; apply (nth_map_seq (fun i => negb (Nat.eqb i w))).
Qed.

Lemma settle_sub c rs : forall count until acc rs' count',
  settle c rs count until = (acc, rs', count') -> forall x, acc = Some x \/ In x rs' -> In x rs.
Proof.
  induction rs as [|r rs IH]; intros count until acc rs' count' H x Hx; cbn [settle] in H.
  - injection H as <- <- _. destruct Hx as [[=]|Hx]; exact Hx.
  - destruct (match until with Some u => r_finish r <? u | None => true end).
    + (* r is due *) destruct (_ || _).
      * (* and accepted *)
        injection H as <- <- _. destruct Hx as [[= ->]|Hx]; [left; reflexivity|right; exact Hx].
      * (* and passed over *) right. exact (IH _ _ _ _ _ H x Hx).
    + (* r is not due *) injection H as <- <- _. destruct Hx as [[=]|Hx]; exact Hx.
Qed.

Lemma in_insert_run r l x : In x (insert_run r l) -> x = r \/ In x l.
Proof.
  induction l as [|y l IH]; cbn [insert_run]; [intros [<-|[]]; left; reflexivity|].
  destruct (r_finish r <? r_finish y); cbn [In].
  - intros [<-|H]; [left; reflexivity|right; exact H].
  - intros [<-|H]; [right; left; reflexivity|]. apply IH in H as [->|H]; [left; reflexivity|right; right; exact H].
Qed.

Theorem hedge_loop_good c atts ext t0 : forall fuel k tk rs count starts tie,
  (k <= h_max c)%nat -> tk = sched c t0 k -> rev starts = map (sched c t0) (seq 0 k) ->
  (forall x, In x rs -> (r_idx x < k)%nat) ->
  good c t0 (hedge_loop fuel c atts ext k tk rs count starts tie).
Proof.
  induction fuel as [|fuel IH]; intros k tk rs count starts tie Hk -> Hst Hrs; cbn [hedge_loop].
  - (* out of fuel: k starts, no winner *) apply (good_tabulated c t0 k); [lia|exact Hst|exact I].
  - assert (Hst1 : rev (sched c t0 k :: starts) = map (sched c t0) (seq 0 (S k))) by (rewrite seq_S, map_app, <- Hst; reflexivity).
    set (a := nth k atts _). (* the unfolded body repeats it; named, the goal stays small for the case splits below *)
    destruct (settle c _ count _) as [[acc rs2] count2] eqn:Es.
    (* what [settle] returns was a runner: attempt k or an earlier one (Hrs) *)
    assert (Hsub : forall x, acc = Some x \/ In x rs2 -> (r_idx x < S k)%nat).
    { intros x Hx. apply (settle_sub _ _ _ _ _ _ _ Es), in_insert_run in Hx as [->|Hx]; [cbn|apply Hrs in Hx]; lia. }
    (* the caller is cancelled when the wait ends: S k starts, no winner *)
    destruct (match ext with Some (tc, _) => tc <=? _ | None => false end);
      [apply (good_tabulated c t0 (S k)); [lia|exact Hst1|exact I]|].
    destruct acc as [r|].
    + (* r accepted: one of the S k (Hsub); [length (tk :: starts)] is S k *)
      apply (good_tabulated c t0 (S k)); [lia|exact Hst1|]. split; [apply Hsub; left; reflexivity|].
      cbn [ho_cancelled ho_winner length]. rewrite <- (rev_length starts), Hst, map_length, seq_length. reflexivity.
    + (* none accepted; no hedge left *)
      destruct (Nat.ltb k (h_max c)) eqn:Elt; [|apply (good_tabulated c t0 (S k)); [lia|exact Hst1|exact I]].
      (* the next start is the timer: [sched c t0 (S k)] by computation *)
      apply Nat.ltb_lt in Elt. apply IH; [lia|reflexivity|exact Hst1|].
      intros x Hx. apply Hsub. right. exact Hx.
Qed.

Theorem hedge_run_good c atts ext t0 : good c t0 (hedge_run c atts ext t0).
Proof. apply hedge_loop_good; [lia|reflexivity|reflexivity|intros x []]. Qed.
