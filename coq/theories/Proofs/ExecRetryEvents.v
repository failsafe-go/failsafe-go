(* C16: per retry policy, every OnRetry is preceded by its own OnRetryScheduled.  The relations [same] and [Jrel] read
   the log only (Proofs/ExecSteps.v [log_rel]), so they contain whatever logs neither of the two events ([same pos]: of
   position pos). *)
From FS Require Import Model.Exec Spec.Verdict Proofs.ExecProofs Proofs.ExecSteps.

(* the pairing automaton of one position over a trace (newest event first): None = violated, Some true = a retry has
   been decided and not yet started *)
Definition stp (pos : nat) (e : event) (s : option bool) : option bool :=
  match s with
  | None => None
  | Some b =>
      if Nat.eqb (e_pos e) pos then
        match e_kind e with
        | KRetryScheduled => Some true
        | KRetry => if b then Some false else None
        | _ => Some b
        end
      else Some b
  end.

Fixpoint st (pos : nat) (tr : list event) : option bool :=
  match tr with
  | [] => Some false
  | e :: tr' => stp pos e (st pos tr')
  end.

Definition retry_kind (k : evk) : bool := match k with KRetryScheduled | KRetry => true | _ => false end.
Definition plain_kind (k : evk) : bool :=
  match k with KRetryScheduled | KRetry | KPolFailure | KPolSuccess | KAbort | KRetriesExceeded => false | _ => true end.
Lemma plain_not_retry k : plain_kind k = true -> retry_kind k = false.
Proof. destruct k; cbn; intros H; try reflexivity; discriminate. Qed.

Lemma stp_neutral pos e s : retry_kind (e_kind e) = false \/ e_pos e <> pos -> stp pos e s = s.
Proof.
  intros H. unfold stp. destruct s as [b|]; [|reflexivity].
  destruct (Nat.eqb (e_pos e) pos) eqn:E; [|reflexivity]. apply Nat.eqb_eq in E.
  destruct H as [H|H]; [|contradiction]. destruct (e_kind e); cbn in H; try discriminate; reflexivity.
Qed.

Lemma plain_verdict k : verdict_kind k = false -> plain_kind k = true.
Proof. destruct k; cbn; congruence. Qed.

Definition quiet (R : world -> world -> Prop) (l : layer) : Prop := forall c w, R w (snd (l c w)).

Definition same (pos : nat) (w w' : world) : Prop := st pos (w_trace w') = st pos (w_trace w).
Definition Nn (pos : nat) (k : evk) (q : nat) : Prop := retry_kind k = false \/ q <> pos.

Lemma s_refl pos w : same pos w w. Proof. reflexivity. Qed.
Lemma s_trans pos a b c : same pos a b -> same pos b c -> same pos a c. Proof. unfold same. congruence. Qed.
Lemma s_frame pos w w' : w_trace w' = w_trace w -> same pos w w'. Proof. unfold same. intros ->. reflexivity. Qed.
Lemma s_emit pos w k q o aux : Nn pos k q -> same pos w (emit w k q o aux).
Proof. intros H. unfold same, emit. cbn [w_trace set_trace st]. apply stp_neutral. cbn [e_kind e_pos]. exact H. Qed.
Lemma s_stamp pos w c : same pos w (stamp w c).
Proof. unfold same, stamp. destruct (w_trace w) as [|e t] eqn:E; [rewrite E; reflexivity|]. cbn [w_trace set_trace st]. reflexivity. Qed.
Lemma s_plain pos k q : plain_kind k = true -> Nn pos k q. Proof. intros H. left. apply plain_not_retry, H. Qed.
Lemma s_kind pos k q : retry_kind k = false -> Nn pos k q. Proof. left. assumption. Qed.
Lemma s_frame2 pos w w' : w_trace w' = w_trace w -> w_retry w' = w_retry w -> same pos w w'. Proof. intros H _. apply s_frame, H. Qed.
Lemma s_put pos w q r : True -> same pos w (put_rstate w q r). Proof. intros _. apply s_frame. reflexivity. Qed.
Lemma same_log pos : log_rel (same pos) (Nn pos) (fun _ => True).
Proof.
  split; [apply s_refl|apply s_trans|apply s_frame2|intros; apply s_put; exact I|apply s_emit|apply s_stamp|].
  intros k q H. apply s_plain, plain_verdict, H.
Qed.

Theorem compose_quiet fuel stack : forall pos start total, (pos < start)%nat -> quiet (same pos) (compose fuel start stack total).
Proof.
  intros pos start total Hlt c w. apply (compose_log (same_log pos)); [|exact (fun _ _ => I)].
  intros k q (p & Hq & _). right. lia.
Qed.

Definition J (w : world) : Prop := forall pos, st pos (w_trace w) <> None.
Definition Jrel (w w' : world) : Prop := J w -> J w'.
Definition Nj (k : evk) (q : nat) : Prop := retry_kind k = false.

Lemma j_refl w : Jrel w w. Proof. intros H. exact H. Qed.
Lemma j_trans a b c : Jrel a b -> Jrel b c -> Jrel a c. Proof. unfold Jrel. auto. Qed.
Lemma j_frame w w' : w_trace w' = w_trace w -> Jrel w w'. Proof. unfold Jrel, J. intros ->. auto. Qed.
Lemma j_emit w k q o aux : Nj k q -> Jrel w (emit w k q o aux).
Proof. intros H HJ pos. rewrite (s_emit pos w k q o aux (or_introl H)). apply HJ. Qed.
Lemma j_stamp w c : Jrel w (stamp w c).
Proof. intros HJ pos. rewrite (s_stamp pos w c). apply HJ. Qed.
Lemma j_plain k q : plain_kind k = true -> Nj k q. Proof. apply plain_not_retry. Qed.
Lemma j_frame2 w w' : w_trace w' = w_trace w -> w_retry w' = w_retry w -> Jrel w w'. Proof. intros H _. apply j_frame, H. Qed.
Lemma j_put w q r : True -> Jrel w (put_rstate w q r). Proof. intros _. apply j_frame. reflexivity. Qed.
Lemma J_log : log_rel Jrel Nj (fun _ => True).
Proof.
  split; [apply j_refl|apply j_trans|apply j_frame2|intros; apply j_put; exact I|apply j_emit|apply j_stamp|].
  intros k q H. apply j_plain, plain_verdict, H.
Qed.

Lemma J_drain w : J w -> J (drain w).
Proof. exact (drain_log J_log w). Qed.

(* the retry policy at q: its own automaton goes decided -> started, the wait in between leaves it alone *)
Lemma retry_loop_J q cfg inner : quiet Jrel inner ->
  forall fuel c w, J w -> J (snd (fst (retry_loop fuel cfg q inner c w))).
Proof.
  intros Hj fuel c.
  apply (retry_loop_inv q cfg inner c J (fun _ => True) (fun w => st q (w_trace w) = Some true)).
  - exact (fun _ H => H).
  - apply Hj.
  - intros w r HJ _. exact (semit_log J_log w w KPolSuccess q _ 0 c eq_refl eq_refl eq_refl HJ).
  - intros w r HJ _. split; [|exact (fun _ => I)]. apply (retry_on_failure_log J_log q cfg c r w I); [reflexivity..|exact HJ].
  - (* the retry is decided *)
    intros w o o' d HJ _. split; [intros pos|]; rewrite s_stamp; unfold emit; cbn [w_trace set_trace set_copy_last set_copies st]; unfold stp; cbn [e_pos e_kind].
    + specialize (HJ pos). destruct (st pos (w_trace w)); [destruct (Nat.eqb q pos); discriminate|contradiction].
    + rewrite Nat.eqb_refl. specialize (HJ q). destruct (st q (w_trace w)); [reflexivity|contradiction].
  - intros w d HJ HP. split; [exact (wait_log J_log w d _ HJ)|exact (eq_trans (wait_log (same_log q) w d _) HP)].
  - (* the retry starts: its automaton was in the decided state *)
    intros w o aux HJ HP pos. rewrite s_stamp. unfold emit. cbn [w_trace set_trace restart set_cell set_copies set_counters st].
    unfold stp. cbn [e_pos e_kind]. destruct (Nat.eqb q pos) eqn:E; [apply Nat.eqb_eq in E; subst pos; rewrite HP; discriminate|].
    specialize (HJ pos). destruct (st pos (w_trace w)); [discriminate|contradiction].
Qed.

Theorem compose_J fuel stack : forall start total, quiet Jrel (compose fuel start stack total).
Proof.
  intros start total. apply compose_ind; [intros c w; apply (fn_layer_log J_log)|].
  intros i p inner _ IH. destruct p as [rc| | | | | | |]; [exact (retry_loop_J _ rc _ IH fuel)|..];
    intros ? ?; (apply (other_policy_log J_log); [discriminate|reflexivity|reflexivity|exact IH]).
Qed.

Theorem retry_events_pair_up fuel stack now ext key b l k c script :
  forall pos, st pos (w_trace (drain (snd (execute fuel stack (fresh_world now ext key b l k c script))))) <> None.
Proof.
  apply (run_log J_log fuel stack now ext key b l k c script (compose_J fuel stack 0 (length stack))).
  intros pos. cbn. discriminate.
Qed.
