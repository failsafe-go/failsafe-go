(* C03.  The machine of Model/Breaker.v is written once over a stats interface, so "the code's breaker is the documented
   machine" is a simulation between two instances of it: a relation between their statistics that preserves what the
   machine reads is carried through every operation (Section Sim).  The bit ring is related to "the last N results" here
   ([Rcount]), the time buckets to their window in BreakerTimedProofs.v, both as a [ring] of cells.  The rules of the
   machine proper (delay, opening, deciding while half-open, events) hold for any statistics. *)
From FS Require Import Spec.BreakerSpec.
From Coq Require Import ZifyBool.

Lemma pair_let {A B C} (p : A * B) (f : A -> B -> C) : (let '(a, b) := p in f a b) = f (fst p) (snd p).
Proof. destruct p; reflexivity. Qed.

Lemma transition_open_half {S} (I : stats_impl S) c a st d now :
  transition I c (Open a st d) now 2 0 =
  (HalfOpen (si_new_half I c) (halfopen_capacity c),
   [ {| ev_tag := 2; ev_old := 1; ev_new := 2; ev_metrics := metrics I a |};
     {| ev_tag := 3; ev_old := 1; ev_new := 2; ev_metrics := metrics I a |} ]).
Proof. reflexivity. Qed.

(* [R t a b]: the two statistics correspond, every instant recorded in them being at most [t] *)
Section Sim.
  Context {S1 S2 : Type} (I1 : stats_impl S1) (I2 : stats_impl S2) (R : Z -> S1 -> S2 -> Prop) (c : bcfg).
  Hypothesis Hobs : forall t a b, R t a b ->
    si_exec I1 a = si_exec I2 b /\ si_fail I1 a = si_fail I2 b /\ si_succ I1 a = si_succ I2 b.
  Hypothesis Hrec : forall t a b now v, R t a b -> t <= now -> R now (si_record I1 a now v) (si_record I2 b now v).
  (* instants are non-negative (absolute Unix times; histories start at 0 or later) *)
  Hypothesis Hnewc : forall t, 0 <= t -> R t (si_new_closed I1 c) (si_new_closed I2 c).
  Hypothesis Hnewh : forall t, 0 <= t -> R t (si_new_half I1 c) (si_new_half I2 c).

  Inductive SR (t : Z) : bstate (S := S1) -> bstate (S := S2) -> Prop :=
    | SR_closed a b : R t a b -> SR t (Closed a) (Closed b)
    | SR_open a b st d : R t a b -> SR t (Open a st d) (Open b st d)
    | SR_half a b p : R t a b -> SR t (HalfOpen a p) (HalfOpen b p).

  (* destructing an instance replaces both results in the goal at once *)
  Inductive SRr {A} (t : Z) : A * bstate (S := S1) * list bevent -> A * bstate (S := S2) * list bevent -> Prop :=
    SRr_intro v s1 s2 e : SR t s1 s2 -> SRr t (v, s1, e) (v, s2, e).
  Inductive SRp (t : Z) : bstate (S := S1) * list bevent -> bstate (S := S2) * list bevent -> Prop :=
    SRp_intro s1 s2 e : SR t s1 s2 -> SRp t (s1, e) (s2, e).

  Lemma SRp_lift t (v : Z) p1 p2 : SRp t p1 p2 ->
    SRr t (let '(s, e) := p1 in (v, s, e)) (let '(s, e) := p2 in (v, s, e)).
  Proof. intros []; constructor; assumption. Qed.

  Lemma R_metrics t a b : R t a b -> frate I1 a = frate I2 b /\ srate I1 a = srate I2 b /\ metrics I1 a = metrics I2 b.
  Proof. intros H. destruct (Hobs _ _ _ H) as (E1 & E2 & E3). unfold metrics, frate, srate. rewrite E1, E2, E3. auto. Qed.

  Lemma SR_obs t s1 s2 : SR t s1 s2 ->
    state_code s1 = state_code s2 /\ (forall now, remaining_delay s1 now = remaining_delay s2 now)
    /\ R t (state_stats s1) (state_stats s2).
  Proof. intros []; auto. Qed.

  Lemma transition_sim t s1 s2 now tgt d : 0 <= t -> SR t s1 s2 ->
    SRp t (transition I1 c s1 now tgt d) (transition I2 c s2 now tgt d).
  Proof.
    intros Hp H. destruct (SR_obs _ _ _ H) as (Ec & _ & Hs). destruct (R_metrics _ _ _ Hs) as (_ & _ & Em).
    unfold transition. rewrite <- Ec, Em.      (* the same test and the same two events on both sides *)
    destruct (state_code s1 =? tgt); constructor; [exact H|].
    destruct (tgt =? 0); [|destruct (tgt =? 1)]; [apply SR_closed, Hnewc, Hp|apply SR_open, Hs|apply SR_half, Hnewh, Hp].
  Qed.

  Lemma try_acquire_sim t s1 s2 now : 0 <= t -> SR t s1 s2 ->
    SRr t (try_acquire I1 c s1 now) (try_acquire I2 c s2 now).
  Proof.
    intros Hp H0. destruct H0 as [a b H|a b st d H|a b p H]; cbn [try_acquire].
    - constructor; apply SR_closed, H.
    - destruct (d <=? now - st); [|constructor; apply SR_open, H].
      (* then a transition, and the admission test on its state: of the same kind on both sides (half-open, in fact) *)
      destruct (transition_sim t _ _ now 2 0 Hp (SR_open t a b st d H)) as [x1 x2 e Hx].
      destruct Hx as [a' b' Hx|a' b' st' d' Hx|a' b' p Hx]; [constructor; apply SR_closed, Hx|constructor; apply SR_open, Hx|].
      destruct (0 <? p); constructor; apply SR_half, Hx.
    - destruct (0 <? p); constructor; apply SR_half, H.
  Qed.

  Lemma check_threshold_sim t s1 s2 now er : 0 <= t -> SR t s1 s2 ->
    SRp t (check_threshold I1 c s1 now er) (check_threshold I2 c s2 now er).
  Proof.
    intros Hp H0. pose proof (fun tgt d => transition_sim t s1 s2 now tgt d Hp H0) as T.
    destruct H0 as [a b H|a b st d H|a b p H]; cbn [check_threshold];
      destruct (Hobs _ _ _ H) as (E1 & E2 & E3); destruct (R_metrics _ _ _ H) as (E4 & E5 & _);
      rewrite ?E1, ?E2, ?E3, ?E4, ?E5.         (* the thresholds are tested on the same numbers *)
    - (* opens, or stays (twice) *)
      destruct (b_fexec c <=? _); [destruct (_ || _)|]; [apply T|constructor; apply SR_closed, H..].
    - constructor; apply SR_open, H.
    - (* closes (twice), opens, or returns the permit *)
      destruct (if negb (b_sthr c =? 0) then _ else _) as [[] []]; [apply T..|]. constructor; apply SR_half, H.
  Qed.

  Lemma record_sim t s1 s2 now v er : 0 <= t <= now -> SR t s1 s2 ->
    SRp now (record I1 c s1 now v er) (record I2 c s2 now v er).
  Proof.
    intros Ht H. apply check_threshold_sim; [lia|].
    destruct H; cbn [state_stats with_stats]; constructor; eapply Hrec; eauto; lia.
  Qed.

  (* an operation either leaves the statistics as they are (index [t]) or records at [now] *)
  Lemma bstep_core_sim t s1 s2 now op : 0 <= t <= now -> SR t s1 s2 ->
    exists t', 0 <= t' <= now /\ SRr t' (bstep_core I1 c s1 now op) (bstep_core I2 c s2 now op).
  Proof.
    intros Ht H. assert (Hp : 0 <= t) by lia. pose proof (try_acquire_sim _ _ _ now Hp H) as A.
    destruct op; cbn [bstep_core].
    1-4: (* the four record operations *) exists now; split; [lia|]; apply SRp_lift, (record_sim t); assumption.
    2-4: (* BOpen, BHalfOpen, BClose *) exists t; split; [lia|]; apply SRp_lift, transition_sim; assumption.
    - (* BTryAcquire *) exists t. split; [lia|]. destruct A as [[] x1 x2 e Hx]; constructor; exact Hx.
    - (* BExec *) destruct A as [[] x1 x2 e Hx].
      + (* admitted *)
        set (ok := negb (is_failure (b_fpol c) o)). exists now. split; [lia|].
        destruct (record_sim _ _ _ now ok (if ok then None else Some (fst o)) Ht Hx). constructor; assumption.
      + (* refused *) exists t. split; [lia|]. constructor; exact Hx.
    - (* BQuery *) exists t. split; [lia|]. constructor; exact H.
  Qed.

  (* [t] bounds the instants in the statistics, [tl] is the instant of the last operation, later if that one recorded nothing *)
  Lemma brun_sim h : forall t tl s1 s2, 0 <= t <= tl -> SR t s1 s2 -> bhist_ok tl h = true ->
    brun I1 c s1 h = brun I2 c s2 h.
  Proof.
    induction h as [|[now op] h IH]; intros t tl s1 s2 Ht H Hh; [reflexivity|].
    cbn [bhist_ok] in Hh. cbn [brun]. unfold bstep.
    destruct (bstep_core_sim t s1 s2 now op ltac:(lia) H) as (t' & Ht' & [v x1 x2 e Hx]).
    destruct (SR_obs _ _ _ Hx) as (Ec & Er & Hs). destruct (R_metrics _ _ _ Hs) as (_ & _ & Em).
    rewrite Ec, Er, Em. f_equal. apply (IH t' now); [exact Ht'|exact Hx|lia].
  Qed.
End Sim.

Lemma nth_set_nth_eq {A} (l : list A) n v d : (n < length l)%nat -> nth n (set_nth n v l) d = v.
Proof. revert n; induction l as [|x l IH]; intros [|n] H; cbn in *; try lia; auto. apply IH; lia. Qed.

Lemma nth_set_nth_neq {A} (l : list A) n m v d : n <> m -> nth m (set_nth n v l) d = nth m l d.
Proof. revert n m; induction l as [|x l IH]; intros [|n] [|m] H; cbn; try reflexivity; try lia. apply IH; lia. Qed.

Lemma set_nth_length {A} (l : list A) n v : length (set_nth n v l) = length l.
Proof. revert n; induction l as [|x l IH]; intros [|n]; cbn; auto. Qed.

Lemma filter_none {A} (f : A -> bool) l : (forall x, In x l -> f x = false) -> filter f l = [].
Proof.
  induction l as [|x l IH]; intros H; [reflexivity|]. cbn [filter]. rewrite (H x (or_introl eq_refl)).
  apply IH. intros y Hy. apply H. right. exact Hy.
Qed.

Lemma mod_shift_ne a k cap : 0 <= a < cap -> 0 < k < cap -> (a - k) mod cap <> a.
Proof.
  intros Ha Hk. destruct (Z_le_gt_dec k a).
  - rewrite Z.mod_small by lia. lia.
  - replace (a - k) with (a - k + cap + (-1) * cap) by lia. rewrite Z.mod_add by lia.
    rewrite Z.mod_small by lia. lia.
Qed.

(* A ring of [N] cells read backwards from cell [H mod N]: the cell [j] places behind it holds [f j] (countingStats: one
   result per cell; timedStats: one time slice per cell). *)
Definition ring {A} (N : Z) (bs : list A) (d : A) (H : Z) (f : Z -> A) : Prop :=
  forall j, 0 <= j < N -> nth (Z.to_nat ((H - j) mod N)) bs d = f j.

Lemma ring_oldest {A} N (bs : list A) d H f : 0 < N -> ring N bs d H f -> nth (Z.to_nat ((H + 1) mod N)) bs d = f (N - 1).
Proof.
  intros HN R. rewrite <- R by lia. replace (H - (N - 1)) with (H + 1 + (-1) * N) by lia.
  rewrite Z.mod_add by lia. reflexivity.
Qed.

Lemma ring_set {A} N (bs : list A) d H v f : length bs = Z.to_nat N -> f 0 = v ->
  (forall j, 0 < j < N -> nth (Z.to_nat ((H - j) mod N)) bs d = f j) ->
  ring N (set_nth (Z.to_nat (H mod N)) v bs) d H f.
Proof.
  intros Hl H0 Hf j Hj. assert (HN : 0 < N) by lia. pose proof (Z.mod_pos_bound H N HN).
  destruct (Z.eq_dec j 0) as [->|Hj0].
  - rewrite Z.sub_0_r, nth_set_nth_eq by lia. symmetry. exact H0.
  - rewrite nth_set_nth_neq; [apply Hf; lia|].
    pose proof (Z.mod_pos_bound (H - j) N HN). intros E. apply Z2Nat.inj in E; try lia.
    revert E. rewrite <- Zminus_mod_idemp_l. apply not_eq_sym, mod_shift_ne; lia.
Qed.

Definition results (l : list (Z * bool)) : list bool := map snd l.

Definition cnt (b : bool) (l : list bool) : Z := Z.of_nat (count_occ bool_dec l b).

Lemma count_if_cnt f l : count_if f l = Z.of_nat (length (filter f (results l))).
Proof. unfold count_if, results. induction l as [|[t v] l IH]; cbn; [reflexivity|]. destruct (f v); cbn; lia. Qed.

Lemma count_if_cons f e l : count_if f (e :: l) = Z.b2z (f (snd e)) + count_if f l.
Proof. unfold count_if. cbn [filter]. destruct (f (snd e)); cbn [length Z.b2z]; lia. Qed.

Lemma count_if_partition l : count_if (fun b => b) l + count_if negb l = Z.of_nat (length l).
Proof.
  induction l as [|e l IH]; [reflexivity|]. rewrite !count_if_cons. cbn [length]. destruct (snd e); cbn [negb Z.b2z]; lia.
Qed.

Lemma count_if_firstn_S f m log :
  count_if f (firstn (S m) log) =
  count_if f (firstn m log) + (if (m <? length log)%nat then Z.b2z (f (snd (nth m log (0, false)))) else 0).
Proof.
  revert log. induction m as [|m IH]; intros [|x log]; try reflexivity.
  - cbn [firstn]. rewrite count_if_cons. cbn. lia.
  - change (firstn (S (S m)) (x :: log)) with (x :: firstn (S m) log).
    change (firstn (S m) (x :: log)) with (x :: firstn m log).
    rewrite !count_if_cons, IH. cbn [length nth]. change (S m <? S (length log))%nat with (m <? length log)%nat. lia.
Qed.

Lemma count_if_slide f m e log :
  count_if f (firstn (S m) (e :: log)) =
  count_if f (firstn (S m) log) + Z.b2z (f (snd e))
  - (if (m <? length log)%nat then Z.b2z (f (snd (nth m log (0, false)))) else 0).
Proof.
  change (firstn (S m) (e :: log)) with (e :: firstn m log). rewrite count_if_cons, count_if_firstn_S. lia.
Qed.

Lemma ring_record cap bits log e : length bits = Z.to_nat cap ->
  ring cap bits false (Z.of_nat (length log) - 1) (fun j => snd (nth (Z.to_nat j) log (0, false))) ->
  ring cap (set_nth (Z.to_nat (Z.of_nat (length log) mod cap)) (snd e) bits) false (Z.of_nat (length (e :: log)) - 1)
    (fun j => snd (nth (Z.to_nat j) (e :: log) (0, false))).
Proof.
  intros Hlen Hring. replace (Z.of_nat (length (e :: log)) - 1) with (Z.of_nat (length log)) by (cbn [length]; lia).
  apply ring_set; [exact Hlen|reflexivity|].
  intros j Hj. replace (Z.to_nat j) with (S (Z.to_nat (j - 1))) by lia. cbn [nth].
  rewrite <- Hring by lia. do 3 f_equal. lia.
Qed.

(* Cell [p mod cap] holds the [p]-th result recorded; the head is where the next one goes.  Slots not yet written
   hold [false], which is also what [nth] returns beyond the end of the log, so [rc_ring] speaks of all [cap]
   slots whether or not the window is full. *)
Record Rcount (cap : Z) (c : cstats) (log : list (Z * bool)) : Prop := {
  rc_size : cs_size c = cap; rc_cap : 1 <= cap;
  rc_len : length (cs_bits c) = Z.to_nat cap;
  rc_head : cs_head c = Z.of_nat (length log) mod cap;
  rc_occ : cs_occ c = Z.of_nat (length (firstn (Z.to_nat cap) log));
  rc_succ : cs_succ c = count_if (fun b => b) (firstn (Z.to_nat cap) log);
  rc_fail : cs_fail c = count_if negb (firstn (Z.to_nat cap) log);
  rc_ring : ring cap (cs_bits c) false (Z.of_nat (length log) - 1) (fun j => snd (nth (Z.to_nat j) log (0, false))) }.

Lemma Rcount_new cap : 1 <= cap -> Rcount cap (cs_new cap) [].
Proof.
  intros H. constructor; rewrite ?firstn_nil; cbn; try lia; try reflexivity.
  - apply repeat_length.
  - intros i _. rewrite nth_repeat. destruct (Z.to_nat i); reflexivity.
Qed.

(* the bit that setNext overwrites *)
Definition evicted (c : cstats) : bool := nth (Z.to_nat (cs_head c)) (cs_bits c) false.

Lemma cs_record_proj c v : let full := negb (cs_occ c <? cs_size c) in
  cs_bits (cs_record c v) = set_nth (Z.to_nat (cs_head c)) v (cs_bits c)
  /\ cs_size (cs_record c v) = cs_size c
  /\ cs_head (cs_record c v) = (cs_head c + 1) mod cs_size c
  /\ cs_occ (cs_record c v) = cs_occ c + Z.b2z (negb full)
  /\ cs_succ (cs_record c v) = cs_succ c + Z.b2z v - (if full then Z.b2z (evicted c) else 0)
  /\ cs_fail (cs_record c v) = cs_fail c + Z.b2z (negb v) - (if full then Z.b2z (negb (evicted c)) else 0).
Proof.
  unfold cs_record, evicted. destruct (cs_occ c <? cs_size c);
    [|destruct (nth (Z.to_nat (cs_head c)) (cs_bits c) false)]; destruct v; cbn; repeat split; lia.
Qed.

Lemma Rcount_record cap c log now v :
  Rcount cap c log -> Rcount cap (cs_record c v) ((now, v) :: log).
Proof.
  intros [Hsize Hcap Hlen Hhead Hocc Hsucc Hfail Hring].
  destruct (cs_record_proj c v) as (Pb & Ps & Ph & Po & Pu & Pf). rewrite Hsize in *.
  (* the slot about to be overwritten holds entry [cap - 1], the oldest of a full window *)
  assert (Hev : evicted c = snd (nth (Z.to_nat (cap - 1)) log (0, false))).
  { unfold evicted. rewrite Hhead, <- (Z.sub_add 1 (Z.of_nat (length log))). apply (ring_oldest cap _ _ _ _ ltac:(lia) Hring). }
  (* cap as the natural number S m, the form in which [firstn] and [count_if_slide] step *)
  destruct (Z.to_nat cap) as [|m] eqn:En; [lia|]. replace (Z.to_nat (cap - 1)) with m in Hev by lia.
  rewrite firstn_length in Hocc.
  assert (Hfull : negb (cs_occ c <? cap) = (m <? length log)%nat) by lia.
  rewrite Hfull in Po, Pu, Pf. rewrite Hev in Pu, Pf.
  constructor.
  - exact Ps.
  - exact Hcap.
  - rewrite Pb, set_nth_length, En. exact Hlen.
  - (* rc_head: (length mod cap + 1) mod cap *) rewrite Ph, Hhead, Zplus_mod_idemp_l. cbn [length]. f_equal. lia.
  - (* rc_occ: the smaller of S m and a length that has grown by one *) rewrite Po, En, firstn_length. cbn [length]. lia.
  - (* rc_succ: entry m, if there is one, leaves the window *) rewrite Pu, En, count_if_slide, <- Hsucc. reflexivity.
  - (* rc_fail: likewise *) rewrite Pf, En, count_if_slide, <- Hfail. reflexivity.
  - rewrite Pb, Hhead. apply (ring_record cap _ log (now, v)); [rewrite En; exact Hlen|exact Hring].
Qed.

Definition bsum (bs : list (Z * Z)) : Z * Z :=
  fold_right (fun b acc => (fst b + fst acc, snd b + snd acc)) (0, 0) bs.

Lemma bsum_set_nth bs idx v : (idx < length bs)%nat ->
  bsum (set_nth idx v bs) =
  (fst (bsum bs) - fst (nth idx bs (0, 0)) + fst v, snd (bsum bs) - snd (nth idx bs (0, 0)) + snd v).
Proof.
  revert idx; induction bs as [|b bs IH]; intros [|idx] H; cbn [length] in H; try lia.
  - cbn. f_equal; lia.
  - cbn [set_nth nth bsum fold_right]. fold (bsum bs). fold (bsum (set_nth idx v bs)).
    rewrite IH by lia. cbn [fst snd]. f_equal; lia.
Qed.

Definition ts_consistent (t : tstats) : Prop := length (ts_buckets t) = 10%nat /\ ts_sum t = bsum (ts_buckets t).

Lemma ts_expire_rule (P : Z -> list (Z * Z) -> Z * Z -> Prop) :
  (forall H bs sum, P H bs sum -> let b := nth (Z.to_nat ((H + 1) mod bucket_count)) bs (0, 0) in
     P (H + 1) (set_nth (Z.to_nat ((H + 1) mod bucket_count)) (0, 0) bs) (fst sum - fst b, snd sum - snd b)) ->
  forall n head i bs sum, P (head + i) bs sum ->
  P (head + i + Z.of_nat n) (fst (ts_expire bs sum head i n)) (snd (ts_expire bs sum head i n)).
Proof.
  intros Hstep. induction n as [|n IH]; intros head i bs sum H; cbn [ts_expire fst snd].
  - rewrite Z.add_0_r. exact H.
  - replace (head + i + Z.of_nat (S n)) with (head + (i + 1) + Z.of_nat n) by lia.
    apply IH. rewrite Z.add_assoc. apply Hstep, H.
Qed.

Lemma bucket_idx h : (Z.to_nat (h mod bucket_count) < 10)%nat.
Proof. pose proof (Z.mod_pos_bound h bucket_count eq_refl). unfold bucket_count in *. lia. Qed.

Lemma ts_current_consistent t now : ts_consistent t -> ts_consistent (ts_current t now).
Proof.
  intros Ht. unfold ts_current. destruct (ts_head t <? now / ts_nanos t); [|exact Ht]. rewrite pair_let.
  refine (ts_expire_rule (fun _ bs sum => length bs = 10%nat /\ sum = bsum bs) _ _ (ts_head t) 0 _ _ Ht).
  intros H bs sum [Hl ->] b. rewrite set_nth_length, bsum_set_nth by (rewrite Hl; apply bucket_idx).
  split; [exact Hl|]. subst b. cbn [fst snd]. f_equal; lia.
Qed.

Theorem timed_stats_summary_is_bucket_sum t now v : ts_consistent t -> ts_consistent (ts_record t now v).
Proof.
  intros H. apply (ts_current_consistent t now) in H. destruct H as [Hl Hs].
  unfold ts_record. set (t' := ts_current t now) in *.
  split; cbn [ts_buckets ts_sum].
  - rewrite set_nth_length. exact Hl.
  - rewrite bsum_set_nth.
    + rewrite Hs. destruct v; cbn [fst snd]; f_equal; lia.
    + rewrite Hl. apply bucket_idx.
Qed.

Lemma div_shift_le x y k n : 0 < n -> x + k * n <= y -> x / n + k <= y / n.
Proof. intros Hn H. rewrite <- Z.div_add by lia. apply Z.div_le_mono; lia. Qed.

Lemma timed_window_documented nanos tnew v log t b :
  1 <= nanos -> t <= tnew ->
  let a := {| a_kind := WTimed nanos; a_log := (tnew, v) :: log |} in
  In (t, b) ((tnew, v) :: log) ->
  (10 * nanos <= tnew - t -> ~ In (t, b) (a_window a))
  /\ (tnew - t < 9 * nanos -> In (t, b) (a_window a)).
Proof.
  intros Hn Ht a Hin. unfold a_window, a, bucket_count. cbn [a_kind a_log]. rewrite filter_In. cbn [fst].
  split; intros H.
  - pose proof (div_shift_le t tnew 10 nanos). lia.
  - pose proof (div_shift_le tnew t (-9) nanos). split; [exact Hin|lia].
Qed.

Section Rules.
  Context {S : Type} (I : stats_impl S) (c : bcfg).

  Theorem open_for_exactly_delay a st d now :
    1 <= halfopen_capacity c ->
    (now - st < d ->
       try_acquire I c (Open a st d) now = (false, Open a st d, [])
       /\ remaining_delay (Open a st d) now = d - (now - st))
    /\ (d <= now - st ->
       fst (fst (try_acquire I c (Open a st d) now)) = true
       /\ snd (fst (try_acquire I c (Open a st d) now)) = HalfOpen (si_new_half I c) (halfopen_capacity c - 1)
       /\ remaining_delay (Open a st d) now = 0).
  Proof.
    intros Hcap. split; intros H; cbn [try_acquire remaining_delay].
    - destruct (d <=? now - st) eqn:E; [lia|]. split; [reflexivity|lia].
    - destruct (d <=? now - st) eqn:E; [|lia]. rewrite transition_open_half.
      destruct (0 <? halfopen_capacity c) eqn:E2; [|lia]. cbn [fst snd]. repeat split. lia.
  Qed.

  Lemma transition_code s now tgt d : 0 <= tgt <= 2 -> state_code (fst (transition I c s now tgt d)) = tgt.
  Proof.
    intros Ht. unfold transition. destruct (state_code s =? tgt) eqn:E; cbn [fst]; [lia|].
    destruct (tgt =? 0) eqn:E0; [|destruct (tgt =? 1) eqn:E1]; cbn; lia.
  Qed.

  Theorem closed_opens_iff st now er :
    state_code (fst (check_threshold I c (Closed st) now er)) = 1 <->
    (b_fexec c <= si_exec I st /\
     ((b_frate c <> 0 /\ b_frate c <= frate I st) \/ (b_frate c = 0 /\ b_fthr c <= si_fail I st))).
  Proof.
    cbn [check_threshold].
    destruct (b_fexec c <=? si_exec I st) eqn:E1; [destruct (_ || _) eqn:E2|];
      rewrite ?transition_code by lia; cbn [fst state_code]; lia.
  Qed.

  (* count thresholds: with the window full, successes + failures = capacity, so the successes reach their threshold
     or the failures exceed what it leaves *)
  Theorem half_open_decides st p now er :
    bcfg_ok c = true -> b_frate c = 0 -> (b_fexec c = 0 \/ b_fexec c = b_fcap c) -> (b_sthr c = 0 -> b_scap c = 0) ->
    halfopen_capacity c <= si_succ I st + si_fail I st ->
    state_code (fst (check_threshold I c (HalfOpen st p) now er)) <> 2.
  Proof.
    intros Hok Hr Hfe Hss Hfull. unfold bcfg_ok in Hok.
    assert (Hcap : halfopen_capacity c = if b_sthr c =? 0 then b_fcap c else b_scap c).
    { unfold halfopen_capacity. destruct (b_sthr c =? 0) eqn:E, (b_scap c =? 0) eqn:E2, (b_fexec c =? 0) eqn:E3; cbn [negb]; lia. }
    cbn [check_threshold]. rewrite Hr. destruct (b_sthr c =? 0) eqn:Es; cbn [negb Z.eqb].
    - destruct (b_fcap c - b_fthr c <? si_succ I st) eqn:E1; [rewrite transition_code; lia|].
      destruct (b_fthr c <=? si_fail I st) eqn:E2; [rewrite transition_code; lia|]. lia.
    - destruct (b_sthr c <=? si_succ I st) eqn:E1; [rewrite transition_code; lia|].
      destruct (b_scap c - b_sthr c <? si_fail I st) eqn:E2; [rewrite transition_code; lia|]. lia.
  Qed.

  (* events come in pairs with old <> new (the listener of the new state, then the generic one, tag 3), and the pairs chain *)
  Fixpoint events_path (code : Z) (evs : list bevent) : option Z :=
    match evs with
    | [] => Some code
    | e1 :: e2 :: rest =>
        if (ev_old e1 =? code) && (ev_old e2 =? code) && negb (ev_new e1 =? code)
           && (ev_new e2 =? ev_new e1) && (ev_tag e1 =? ev_new e1) && (ev_tag e2 =? 3)
           && (0 <=? ev_new e1) && (ev_new e1 <=? 2)
        then events_path (ev_new e1) rest else None
    | _ => None
    end.

  Lemma events_path_app_n n : forall code evs1 evs2 mid, (length evs1 <= n)%nat ->
    events_path code evs1 = Some mid -> events_path code (evs1 ++ evs2) = events_path mid evs2.
  Proof.
    induction n as [|n IH]; intros code evs1 evs2 mid Hl H.
    - destruct evs1; cbn in Hl; [|lia]. cbn in H. injection H as ->. reflexivity.
    - destruct evs1 as [|e1 [|e2 rest]]; cbn [events_path app] in *; try discriminate.
      + injection H as ->. reflexivity.
      + destruct (_ && _); [|discriminate]. apply IH; [cbn in Hl; lia|exact H].
  Qed.

  Lemma events_path_app code evs1 evs2 mid :
    events_path code evs1 = Some mid -> events_path code (evs1 ++ evs2) = events_path mid evs2.
  Proof. apply (events_path_app_n (length evs1)). lia. Qed.

  Lemma transition_path s now tgt d : 0 <= tgt <= 2 ->
    events_path (state_code s) (snd (transition I c s now tgt d)) = Some (state_code (fst (transition I c s now tgt d))).
  Proof.
    intros Ht. rewrite transition_code by exact Ht. unfold transition.
    destruct (state_code s =? tgt) eqn:E; cbn [snd events_path ev_old ev_new ev_tag]; [f_equal; lia|].
    rewrite !Z.eqb_refl, Z.eqb_sym, E. replace (0 <=? tgt) with true by lia. replace (tgt <=? 2) with true by lia. reflexivity.
  Qed.

  Lemma check_threshold_path s now er :
    events_path (state_code s) (snd (check_threshold I c s now er)) = Some (state_code (fst (check_threshold I c s now er))).
  Proof.
    destruct s as [st|st a b|st p]; cbn [check_threshold].
    - destruct (b_fexec c <=? si_exec I st); [|reflexivity].
      destruct (_ || _); [apply transition_path; lia|reflexivity].
    - reflexivity.
    - destruct (if negb (b_sthr c =? 0) then _ else _) as [se fe].
      destruct se; [apply transition_path; lia|]. destruct fe; [apply transition_path; lia|reflexivity].
  Qed.

  Lemma record_path s now v er :
    events_path (state_code s) (snd (record I c s now v er)) = Some (state_code (fst (record I c s now v er))).
  Proof.
    unfold record. rewrite <- check_threshold_path. f_equal. destruct s; reflexivity.
  Qed.

  Lemma try_acquire_path s now :
    events_path (state_code s) (snd (try_acquire I c s now)) = Some (state_code (snd (fst (try_acquire I c s now)))).
  Proof.
    destruct s as [st|st a b|st p]; cbn [try_acquire].
    - reflexivity.
    - destruct (b <=? now - a); [|reflexivity]. rewrite transition_open_half.
      destruct (0 <? halfopen_capacity c); reflexivity.
    - destruct (0 <? p); reflexivity.
  Qed.

  Theorem step_events_form_path s now op :
    events_path (state_code s) (snd (bstep_core I c s now op)) = Some (state_code (snd (fst (bstep_core I c s now op)))).
  Proof.
    pose proof (try_acquire_path s now) as Ha.
    destruct op; cbn [bstep_core]; rewrite ?pair_let; cbn [fst snd]; try apply record_path.   (* the four record operations *)
    - (* BTryAcquire *) exact Ha.
    - (* BOpen *) apply transition_path; lia.
    - (* BHalfOpen *) apply transition_path; lia.
    - (* BClose *) apply transition_path; lia.
    - (* BExec: an admission and, if admitted, a record *)
      destruct (try_acquire I c s now) as [[ok s1] e1]. destruct ok; cbn [fst snd] in *; [|exact Ha].
      rewrite (events_path_app _ _ _ _ Ha). apply record_path.
    - (* BQuery *) reflexivity.
  Qed.

  Theorem history_events_form_path h : forall s,
    events_path (state_code s) (flat_map ob_events (brun I c s h)) = Some (state_code (bfinal I c s h)).
  Proof.
    induction h as [|[now op] h IH]; intros s; [reflexivity|].
    cbn [brun bfinal]. unfold bstep.
    pose proof (step_events_form_path s now op) as H.
    destruct (bstep_core I c s now op) as [[v s'] e]. cbn [fst snd] in *.
    cbn [flat_map ob_events]. rewrite (events_path_app _ _ _ _ H). apply IH.
  Qed.
End Rules.

Theorem half_open_decides_within_capacity c a p now er :
  bcfg_ok c = true -> b_frate c = 0 -> (b_fexec c = 0 \/ b_fexec c = b_fcap c) ->
  (b_sthr c = 0 -> b_scap c = 0) ->
  a_kind a = WCount (halfopen_capacity c) ->
  Z.of_nat (length (a_log a)) >= halfopen_capacity c ->       (* capacity results recorded in this state *)
  state_code (fst (check_threshold abs_impl c (HalfOpen a p) now er)) <> 2.
Proof.
  intros Hok Hr Hfe Hss Hk Hlen. apply half_open_decides; try assumption.
  cbn [abs_impl si_succ si_fail]. rewrite count_if_partition. unfold a_window. rewrite Hk, firstn_length. lia.
Qed.
