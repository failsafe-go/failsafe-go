(* C05: the code's limiter statistics refine the grant ledger.  Lay the permits out on a line on which slot p (smooth: interval
   slot, bursty: period) owns the positions cap*p .. cap*p+cap-1.  From the slot of the last request on, the ledger holds exactly
   the positions below one number, the fill level U ([filled]).  smoothStats keeps it as nextFreePermitTime / interval,
   burstyStats, lifted to the start of currentPeriod, as periodPermits * (currentPeriod + 1) - availablePermits ([lim_at]).
   A request for k permits lifts the level to the start of its own slot if it lies below, waits for the slot that owns position
   U+k-1 and leaves the level at U+k ([level_acquire]); the two statistics and the ledger are each shown to be this counter. *)
From FS Require Import Spec.LimiterSpec.
From Coq Require Import ZifyBool.

(* instantiated at the slots in question this turns every division below into linear arithmetic *)
Lemma le_div_iff w x s : 0 < w -> s <= x / w <-> w * s <= x.
Proof.
  intros Hw. split; [|apply Z.div_le_lower_bound; exact Hw].
  intros H. destruct (Z_lt_le_dec x (w * s)) as [Hlt|]; [|assumption].
  apply Z.div_lt_upper_bound in Hlt; lia.
Qed.

Lemma div_eq_iff w x s : 0 < w -> x / w = s <-> w * s <= x < w * s + w.
Proof. intros Hw. pose proof (le_div_iff w x s Hw). pose proof (le_div_iff w x (s + 1) Hw). lia. Qed.

(* burstyStats' "additionalPeriods": ceil (d / pp) - 1 *)
Lemma ceil_div_pred d pp : 0 < pp ->
  (if d mod pp =? 0 then d / pp - 1 else d / pp) = (d - 1) / pp.
Proof.
  intros Hpp. symmetry. apply div_eq_iff; [assumption|].
  pose proof (Z.div_mod d pp ltac:(lia)). pose proof (Z.mod_pos_bound d pp Hpp).
  destruct (d mod pp =? 0) eqn:E; lia.
Qed.

Lemma count_nonneg l s : 0 <= count l s.
Proof. unfold count. lia. Qed.

Lemma count_cons l x s : count (x :: l) s = count l s + (if Z.eq_dec x s then 1 else 0).
Proof. unfold count. cbn [count_occ]. destruct (Z.eq_dec x s); lia. Qed.

Lemma ledger_max_ge l q : q <= ledger_max l q.
Proof. induction l as [|x l IH]; cbn [ledger_max fold_right]; [lia|]. fold (ledger_max l q). lia. Qed.

Lemma count_above_max l q s : ledger_max l q < s -> count l s = 0.
Proof.
  induction l as [|x l IH]; cbn [ledger_max fold_right]; intros H; [reflexivity|].
  fold (ledger_max l q) in H. rewrite count_cons. rewrite IH by lia.
  destruct (Z.eq_dec x s); lia.
Qed.

Lemma find_free_spec cap l M :
  0 < cap -> (forall s, M < s -> count l s = 0) ->
  forall fuel q, M + 1 - q <= Z.of_nat fuel ->
  let r := find_free cap l q fuel in
  q <= r /\ count l r < cap /\ forall s, q <= s < r -> cap <= count l s.
Proof.
  intros Hcap HM fuel. induction fuel as [|f IH]; intros q Hf; cbn [find_free].
  - repeat split; [lia | rewrite HM by lia; lia | intros s Hs; lia].
  - destruct (count l q <? cap) eqn:E.
    + repeat split; [lia | lia | intros s Hs; lia].
    + specialize (IH (q + 1) ltac:(lia)). cbv zeta in IH. destruct IH as (H1 & H2 & H3).
      repeat split; [lia | exact H2 |].
      intros s Hs. destruct (Z.eq_dec s q) as [->|Hne]; [lia | apply H3; lia].
Qed.

Lemma earliest_free_spec cap l q :
  0 < cap ->
  let r := earliest_free cap l q in
  q <= r /\ count l r < cap /\ forall s, q <= s < r -> cap <= count l s.
Proof.
  intros Hcap. unfold earliest_free.
  apply (find_free_spec cap l (ledger_max l q) Hcap).
  - intros s Hs. apply (count_above_max l q s Hs).
  - pose proof (ledger_max_ge l q). lia.
Qed.

Lemma earliest_free_unique cap l q r :
  0 < cap -> q <= r -> count l r < cap -> (forall s, q <= s < r -> cap <= count l s) ->
  earliest_free cap l q = r.
Proof.
  intros Hcap Hq Hr Hfull.
  destruct (earliest_free_spec cap l q Hcap) as (H1 & H2 & H3).
  destruct (Z.lt_trichotomy (earliest_free cap l q) r) as [Hlt|[Heq|Hgt]]; [|exact Heq|].
  - specialize (Hfull _ (conj H1 Hlt)). lia.
  - specialize (H3 r (conj Hq Hgt)). lia.
Qed.

Definition cap_ok (cap : Z) (l : ledger) : Prop := forall s, count l s <= cap.

Lemma spec_single_props c l now :
  0 < slot_cap c -> 0 < slot_width c -> 0 <= now ->
  let '(w, s) := spec_single c l now in
  0 <= w /\ (now + w) / slot_width c = s /\ now / slot_width c <= s /\
  count l s < slot_cap c /\ (forall p, now / slot_width c <= p < s -> slot_cap c <= count l p).
Proof.
  intros Hc Hw _. unfold spec_single.
  destruct (earliest_free_spec (slot_cap c) l (now / slot_width c) Hc) as (H1 & H2 & H3).
  set (s := earliest_free (slot_cap c) l (now / slot_width c)) in *.
  repeat split; [lia | | exact H1 | exact H2 | exact H3].
  apply div_eq_iff; [assumption|]. pose proof (le_div_iff (slot_width c) now (s + 1) Hw). lia.
Qed.

Lemma spec_singles_cap c now k : 0 < slot_cap c ->
  forall l w, cap_ok (slot_cap c) l -> cap_ok (slot_cap c) (snd (spec_singles c l now k w)).
Proof.
  intros Hc. induction k as [|k IH]; intros l w Hl; cbn [spec_singles spec_single]; [exact Hl|].
  apply IH. intros p. rewrite count_cons. specialize (Hl p).
  destruct (earliest_free_spec (slot_cap c) l (now / slot_width c) Hc) as (_ & H2 & _).
  destruct (Z.eq_dec _ p) as [<-|]; lia.
Qed.

(* every API method asks the permit source once, at (op_permits op, op_maxw op); they differ in how they present the answer *)
Definition op_obs (op : lop) (now w : Z) : lobs :=
  match op with
  | OpTryAcquire _ => {| o_val := if w =? 0 then 1 else 0; o_ret := now |}
  | OpReserve _ | OpTryReserve _ _ => {| o_val := w; o_ret := now |}
  | OpAcquire _ => {| o_val := 0; o_ret := now + w |}
  | OpAcquireMax _ _ => if w =? -1 then {| o_val := 1; o_ret := now |} else {| o_val := 0; o_ret := now + w |}
  end.

Lemma api_step_eq {S} (acq : S -> Z -> Z -> Z -> Z * S) s now op :
  api_step acq s now op =
  let '(w, s') := acq s now (op_permits op) (op_maxw op) in (op_obs op now w, s').
Proof.
  destruct op; cbn [api_step op_permits op_maxw op_obs]; destruct (acq s now k _) as [w s']; try reflexivity.
  destruct (w =? -1); reflexivity.
Qed.

Lemma api_step_snd {S} (acq : S -> Z -> Z -> Z -> Z * S) s now op :
  snd (api_step acq s now op) = snd (acq s now (op_permits op) (op_maxw op)).
Proof. rewrite api_step_eq. destruct (acq s now _ _); reflexivity. Qed.

Lemma spec_capacity c h : 0 < slot_cap c ->
  forall l, cap_ok (slot_cap c) l -> cap_ok (slot_cap c) (spec_final c l h).
Proof.
  intros Hc. induction h as [|[now op] h IH]; intros l Hl; cbn [spec_final]; [exact Hl|].
  apply IH. rewrite api_step_snd. unfold spec_acquire.
  pose proof (spec_singles_cap c now (Z.to_nat (op_permits op)) Hc l 0 Hl) as H.
  destruct (spec_singles c l now _ 0) as [w l']. destruct (exceeds_max_wait w _); assumption.
Qed.

Lemma spec_singles_wait_nonneg c now k : forall l w, 0 <= w -> 0 <= fst (spec_singles c l now k w).
Proof.
  induction k as [|k IH]; intros l w Hw; cbn [spec_singles spec_single]; [exact Hw|]. apply IH. lia.
Qed.

Lemma spec_refusal_no_change c l now k maxw :
  fst (spec_acquire c l now k maxw) = -1 -> snd (spec_acquire c l now k maxw) = l.
Proof.
  unfold spec_acquire. pose proof (spec_singles_wait_nonneg c now (Z.to_nat k) l 0 (Z.le_refl 0)) as Hw.
  destruct (spec_singles c l now (Z.to_nat k) 0) as [w l'].
  destruct (exceeds_max_wait w maxw); [reflexivity|]. cbn [fst] in *. lia.
Qed.

Definition filled (cap : Z) (l : ledger) (q U : Z) : Prop :=
  forall p, q <= p -> count l p = Z.max 0 (Z.min cap (U - cap * p)).

Definition level_acquire (cap width U now k maxw : Z) : Z * Z :=
  let U' := Z.max U (cap * (now / width)) in
  let w := Z.max (width * ((U' + k - 1) / cap)) now - now in
  if exceeds_max_wait w maxw then (-1, U) else (w, U' + k).

Lemma filled_nil cap q : 0 < cap -> 0 <= q -> filled cap [] q 0.
Proof.
  intros Hc Hq p Hp. change (count [] p) with 0. pose proof (Z.mul_nonneg_nonneg cap p ltac:(lia) ltac:(lia)). lia.
Qed.

Lemma filled_from_later cap l q q' U : q <= q' -> filled cap l q U -> filled cap l q' U.
Proof. intros Hq F p Hp. apply F. lia. Qed.

Lemma filled_lift cap l q U : 0 < cap -> filled cap l q U -> filled cap l q (Z.max U (cap * q)).
Proof.
  intros Hc F p Hp. rewrite F by lia.
  destruct (Z.max_spec U (cap * q)) as [[HU ->]|[_ ->]]; [|reflexivity].
  (* U lies below slot q: nothing of it shows from there on *)
  pose proof (Z.mul_le_mono_nonneg_l q p cap ltac:(lia) Hp). lia.
Qed.

Lemma filled_cons cap l q U :
  0 < cap -> cap * q <= U -> filled cap l q U ->
  earliest_free cap l q = U / cap /\ filled cap (U / cap :: l) q (U + 1).
Proof.
  intros Hc HU F.
  (* where slot p lies relative to the owner of U, in linear terms *)
  assert (D : forall p, (p <= U / cap <-> cap * p <= U) /\ (p + 1 <= U / cap <-> cap * p + cap <= U)).
  { intros p. pose proof (le_div_iff cap U p Hc). pose proof (le_div_iff cap U (p + 1) Hc). lia. }
  split.
  - apply earliest_free_unique; [assumption | apply D; assumption | |].
    + rewrite F by (apply D; assumption). specialize (D (U / cap)). lia.
    + intros p Hp. rewrite F by lia. specialize (D p). lia.
  - intros p Hp. rewrite count_cons, F by assumption. specialize (D p).
    destruct (Z.eq_dec (U / cap) p); lia.
Qed.

Lemma spec_singles_S c l now U k w :
  0 < slot_cap c -> slot_cap c * (now / slot_width c) <= U -> filled (slot_cap c) l (now / slot_width c) U ->
  spec_singles c l now (S k) w = spec_singles c (U / slot_cap c :: l) now k (Z.max (slot_width c * (U / slot_cap c)) now - now).
Proof. intros Hc HU F. cbn [spec_singles]. unfold spec_single. rewrite (proj1 (filled_cons _ _ _ _ Hc HU F)). reflexivity. Qed.

Lemma spec_singles_filled c l now U k w :
  0 < slot_cap c -> slot_cap c * (now / slot_width c) <= U ->
  filled (slot_cap c) l (now / slot_width c) U ->
  let '(w', l') := spec_singles c l now (S k) w in
  w' = Z.max (slot_width c * ((U + Z.of_nat k) / slot_cap c)) now - now /\
  filled (slot_cap c) l' (now / slot_width c) (U + Z.of_nat (S k)).
Proof.
  intros Hc. revert l U w. induction k as [|k IH]; intros l U w HU F;
    rewrite (spec_singles_S c l now U _ w Hc HU F); destruct (filled_cons _ _ _ _ Hc HU F) as [_ F1].   (* F1: filled to U + 1 *)
  - (* one single: its wait is the answer *) cbn [spec_singles]. rewrite Z.add_0_r. split; [reflexivity|exact F1].
  - (* the k + 1 others start from the level U + 1 *)
    replace (U + Z.of_nat (S k)) with (U + 1 + Z.of_nat k) by lia.
    replace (U + Z.of_nat (S (S k))) with (U + 1 + Z.of_nat (S k)) by lia. apply IH; [lia|exact F1].
Qed.

Lemma spec_acquire_is_level_acquire c l t now k maxw U :
  0 < slot_cap c -> 0 < slot_width c -> t <= now -> 1 <= k ->
  filled (slot_cap c) l (t / slot_width c) U ->
  let '(w, U') := level_acquire (slot_cap c) (slot_width c) U now k maxw in
  let '(w', l') := spec_acquire c l now k maxw in
  w' = w /\ filled (slot_cap c) l' (now / slot_width c) U'.
Proof.
  intros Hc Hw Ht Hk F. unfold level_acquire, spec_acquire.
  (* seen from the slot of [now] the level is U still (F), and as well U lifted to the start of that slot (F0) *)
  apply (filled_from_later _ _ _ (now / slot_width c)) in F; [|apply Z.div_le_mono; lia].
  pose proof (filled_lift _ _ _ _ Hc F) as F0. set (U0 := Z.max U _) in *.
  (* the k = S (k - 1) singles from the level U0: the wait is for the owner of position U0 + k - 1, the level becomes U0 + k *)
  pose proof (spec_singles_filled c l now U0 (Z.to_nat (k - 1)) 0 Hc ltac:(lia) F0) as H.
  replace (S (Z.to_nat (k - 1))) with (Z.to_nat k) in H by lia.
  replace (U0 + Z.of_nat (Z.to_nat (k - 1))) with (U0 + k - 1) in H by lia.
  replace (U0 + Z.of_nat (Z.to_nat k)) with (U0 + k) in H by lia.
  destruct (spec_singles c l now (Z.to_nat k) 0) as [w' l']. destruct H as [-> F'].
  destruct (exceeds_max_wait _ maxw); (split; [reflexivity|]); [exact F|exact F'].
Qed.

Lemma exceeds_max_wait_unlimited w : exceeds_max_wait w (-1) = false.
Proof. unfold exceeds_max_wait. rewrite Z.eqb_refl. reflexivity. Qed.

Lemma exceeds_max_wait_0 maxw : -1 <= maxw -> exceeds_max_wait 0 maxw = false.
Proof. unfold exceeds_max_wait. lia. Qed.

Lemma round_down_eq now i : 0 < i -> round_down now i = i * (now / i).
Proof. intros Hi. unfold round_down. pose proof (Z.div_mod now i ltac:(lia)). lia. Qed.

Lemma smooth_acquire_is_level_acquire i U now k maxw : 0 < i ->
  smooth_acquire i (i * U) now k maxw =
  let '(w, U') := level_acquire 1 i U now k maxw in (w, i * U').
Proof.
  intros Hi. unfold smooth_acquire, level_acquire. cbv zeta.
  rewrite round_down_eq, Z.div_1_r, Z.mul_1_l by assumption.
  pose proof (le_div_iff i now U Hi) as D.
  destruct (i * U <=? now) eqn:E; [rewrite (Z.max_r U) by lia | rewrite (Z.max_l U) by lia].
  - replace (Z.max (i * (now / i) + i * k - now - i) 0) with (Z.max (i * (now / i + k - 1)) now - now) by lia.
    destruct (exceeds_max_wait _ maxw); f_equal; lia.
  - replace (Z.max (i * U + i * k - now - i) 0) with (Z.max (i * (U + k - 1)) now - now) by lia.
    destruct (exceeds_max_wait _ maxw); f_equal; lia.
Qed.

Lemma smooth_split_front i nfpt now k :
  0 < i -> 0 <= now -> 1 <= k ->
  smooth_acquire i nfpt now (1 + k) (-1) =
  smooth_acquire i (snd (smooth_acquire i nfpt now 1 (-1))) now k (-1).
Proof.
  intros Hi _ _. unfold smooth_acquire. rewrite !exceeds_max_wait_unlimited. cbn [snd].
  rewrite round_down_eq by assumption.
  pose proof (proj1 (div_eq_iff i now _ Hi) eq_refl) as Hq.      (* i * (now / i) <= now < i * (now / i) + i *)
  (* the first permit leaves nextFreePermitTime (n1) after [now], so the second request appends its k intervals to it *)
  set (n1 := if nfpt <=? now then i * (now / i) + i * 1 else nfpt + i * 1).
  assert (E1 : (n1 <=? now) = false) by (subst n1; destruct (nfpt <=? now) eqn:E; lia).
  rewrite E1. subst n1. destruct (nfpt <=? now); f_equal; lia.
Qed.

Lemma bursty_roll_cur pp period s tlast now :
  b_cur s = tlast / period -> 0 < period -> tlast <= now ->
  b_cur (bursty_roll true pp period s now) = now / period.
Proof.
  intros Hc Hp Ht. pose proof (Z.div_le_mono tlast now period ltac:(lia) Ht).
  unfold bursty_roll. destruct (b_cur s <? now / period) eqn:E; cbn [b_cur]; lia.
Qed.

Lemma bursty_roll_cur_ge fixed pp period s now : now / period <= b_cur (bursty_roll fixed pp period s now).
Proof. unfold bursty_roll. destruct (b_cur s <? now / period) eqn:E; cbn [b_cur]; lia. Qed.

Lemma bursty_roll_id fixed pp period s now :
  now / period <= b_cur s -> bursty_roll fixed pp period s now = s.
Proof. intros H. unfold bursty_roll. destruct (b_cur s <? now / period) eqn:E; [lia|reflexivity]. Qed.

Definition bursty_at (pp period t U : Z) : bursty :=
  {| b_avail := pp * (t / period + 1) - Z.max U (pp * (t / period)); b_cur := t / period |}.

(* the roll-over (with the cap of the fix for F1) is the lift [level_acquire] begins with: the level stood for stays *)
Lemma bursty_roll_at pp period t U now : 0 < pp -> 0 < period -> t <= now ->
  bursty_roll true pp period (bursty_at pp period t U) now = bursty_at pp period now U.
Proof.
  intros Hpp Hp Ht. pose proof (Z.div_le_mono t now period ltac:(lia) Ht) as Hq.
  unfold bursty_roll, bursty_at. cbn [b_cur b_avail].
  set (q := t / period) in *. set (q' := now / period) in *.
  destruct (q <? q') eqn:E; [|replace q' with q by lia; reflexivity].        (* else: the same period *)
  pose proof (Z.mul_le_mono_nonneg_l (q + 1) q' pp ltac:(lia) ltac:(lia)) as Hs.    (* period q ends where q' starts, or before *)
  f_equal. destruct (_ <? 0) eqn:Ea.
  - (* permits owed: U lies beyond period q.  Period q' has what U leaves of it, all pp (the cap) if U lies before it *) lia.
  - (* none owed: U lies in period q or before it, hence before period q' (Hs), which has all pp *) lia.
Qed.

Lemma bursty_acquire_is_level_acquire pp period t U now k maxw :
  0 < pp -> 0 < period -> t <= now -> 1 <= k -> -1 <= maxw ->
  bursty_acquire pp period (bursty_at pp period t U) now k maxw =
  let '(w, U') := level_acquire pp period U now k maxw in (w, bursty_at pp period now U').
Proof.
  intros Hpp Hper Ht Hk Hm. unfold bursty_acquire, bursty_acquire_gen. rewrite bursty_roll_at by assumption.
  unfold level_acquire, bursty_at. cbn [b_avail b_cur].
  set (q := now / period). pose proof (proj1 (div_eq_iff period now q Hper) eq_refl) as Hq.
  (* U0: the level lifted to the start of period q; a: availablePermits, what period q has left from U0 on (negative: owed) *)
  set (U0 := Z.max U (pp * q)). set (a := pp * (q + 1) - U0).
  destruct (a <? k) eqn:E.
  - (* deficit k - a: the last permit lies ceil ((k - a) / pp) periods ahead *)
    rewrite ceil_div_pred by lia.
    (* the same in level terms: U0 + k - 1 = pp * (q + 1) + (k - a - 1), so its owner is (k - a - 1) / pp periods after q + 1 *)
    replace ((U0 + k - 1) / pp) with (q + 1 + (k - a - 1) / pp)
      by (rewrite <- Z.div_add_l by lia; f_equal; lia).
    (* that period starts after [now]: the max is its first argument *)
    pose proof (Z.mul_nonneg_nonneg period _ ltac:(lia) (Z.div_pos (k - a - 1) pp ltac:(lia) Hpp)) as Hn.
    replace (Z.max _ now - now) with ((q + 1) * period - now + (k - a - 1) / pp * period) by lia.
    (* refused: the state stands for U as before; granted: a - k stands for U0 + k *)
    destruct (exceeds_max_wait _ maxw); f_equal; f_equal; lia.
  - (* enough permits in this period: position U0 + k - 1 is in period q, the wait is 0; the code does not consult the max wait *)
    replace ((U0 + k - 1) / pp) with q by (symmetry; apply div_eq_iff; lia).
    rewrite Z.max_r, Z.sub_diag, exceeds_max_wait_0 by lia. f_equal; f_equal; lia.
Qed.

Lemma bursty_acquire_unlimited_snd pp period s now k :
  snd (bursty_acquire pp period s now k (-1)) =
  let r := bursty_roll true pp period s now in {| b_avail := b_avail r - k; b_cur := b_cur r |}.
Proof.
  unfold bursty_acquire, bursty_acquire_gen. rewrite exceeds_max_wait_unlimited.
  destruct (b_avail _ <? k); reflexivity.
Qed.

Lemma bursty_split_front pp period s now k :
  1 <= k ->
  bursty_acquire pp period s now (1 + k) (-1) =
  bursty_acquire pp period (snd (bursty_acquire pp period s now 1 (-1))) now k (-1).
Proof.
  intros _. rewrite bursty_acquire_unlimited_snd. cbv zeta. unfold bursty_acquire, bursty_acquire_gen.
  (* the second request finds the period already rolled over *)
  rewrite (bursty_roll_id true pp period {| b_avail := _ |}) by apply bursty_roll_cur_ge.
  set (r := bursty_roll true pp period s now). cbn [b_avail b_cur].
  replace (b_avail r - 1 <? k) with (b_avail r <? 1 + k) by lia.
  replace (k - (b_avail r - 1)) with (1 + k - b_avail r) by lia.
  replace (b_avail r - 1 - k) with (b_avail r - (1 + k)) by lia. reflexivity.
Qed.

(* the statistics standing for level U when the last request came at instant t *)
Definition lim_at (c : lcfg) (t U : Z) : lstate :=
  match c with
  | Smooth i => SSmooth (i * U)
  | Bursty pp p => SBursty (bursty_at pp p t U)
  end.

Lemma cfg_ok_pos c : cfg_ok c = true -> 0 < slot_cap c /\ 0 < slot_width c.
Proof. destruct c; cbn [cfg_ok slot_cap slot_width]; lia. Qed.

Lemma lim_acquire_is_level_acquire c t U now k maxw :
  cfg_ok c = true -> t <= now -> 1 <= k -> -1 <= maxw ->
  lim_acquire c (lim_at c t U) now k maxw =
  let '(w, U') := level_acquire (slot_cap c) (slot_width c) U now k maxw in (w, lim_at c now U').
Proof.
  intros [Hcap Hwid]%cfg_ok_pos Ht Hk Hm. destruct c as [i|pp p]; cbn [lim_acquire lim_at slot_cap slot_width] in *.
  - rewrite smooth_acquire_is_level_acquire by assumption. destruct (level_acquire 1 i U now k maxw); reflexivity.
  - rewrite bursty_acquire_is_level_acquire by assumption. destruct (level_acquire pp p U now k maxw); reflexivity.
Qed.

Definition lim_rel (c : lcfg) (s : lstate) (l : ledger) (t : Z) : Prop :=
  exists U, s = lim_at c t U /\ filled (slot_cap c) l (t / slot_width c) U.

Lemma lim_rel_init c : cfg_ok c = true -> lim_rel c (lim_init c) [] 0.
Proof.
  intros [Hcap Hwid]%cfg_ok_pos. exists 0. split.
  - destruct c as [i|pp p]; cbn [lim_init lim_at slot_width] in *.
    + f_equal. lia.
    + unfold bursty_at. rewrite Z.div_0_l by lia. do 2 f_equal. lia.
  - rewrite Z.div_0_l by lia. apply filled_nil; lia.
Qed.

Lemma lim_acquire_refines c s l t now k maxw :
  cfg_ok c = true -> t <= now -> 1 <= k -> -1 <= maxw -> lim_rel c s l t ->
  let '(w, s') := lim_acquire c s now k maxw in
  let '(w', l') := spec_acquire c l now k maxw in
  w = w' /\ lim_rel c s' l' now.
Proof.
  intros Hc Ht Hk Hm (U & -> & F). destruct (cfg_ok_pos c Hc) as [Hcap Hwid].
  rewrite lim_acquire_is_level_acquire by assumption.
  pose proof (spec_acquire_is_level_acquire c l t now k maxw U Hcap Hwid Ht Hk F) as H.
  destruct (level_acquire _ _ U now k maxw) as [w U']. destruct (spec_acquire c l now k maxw) as [w' l'].
  destruct H as [-> F']. split; [reflexivity|]. exists U'. split; [reflexivity | exact F'].
Qed.

Lemma hist_ok_cons t now op h :
  hist_ok t ((now, op) :: h) = true <->
  t <= now /\ 1 <= op_permits op /\ -1 <= op_maxw op /\ hist_ok now h = true.
Proof. cbn [hist_ok]. lia. Qed.

Lemma hist_ok_weaken t t' h : t <= t' -> hist_ok t' h = true -> hist_ok t h = true.
Proof. destruct h as [|[now op] h]; cbn [hist_ok]; intros; lia. Qed.

Lemma api_step_refines c s l t now op h :
  cfg_ok c = true -> hist_ok t ((now, op) :: h) = true -> lim_rel c s l t ->
  fst (api_step (lim_acquire c) s now op) = fst (api_step (spec_acquire c) l now op)
  /\ lim_rel c (snd (api_step (lim_acquire c) s now op)) (snd (api_step (spec_acquire c) l now op)) now
  /\ hist_ok now h = true.
Proof.
  intros Hc (Hn & Hk & Hm & Hh)%hist_ok_cons Hrel. rewrite !api_step_eq.
  pose proof (lim_acquire_refines c s l t now _ _ Hc Hn Hk Hm Hrel) as H.
  destruct (lim_acquire c s now _ _) as [w s']. destruct (spec_acquire c l now _ _) as [w' l'].
  destruct H as [-> H]. repeat split; assumption.
Qed.

Theorem lim_refines_ledger_from c : cfg_ok c = true ->
  forall h s l t, hist_ok t h = true -> lim_rel c s l t -> lim_run c s h = spec_run c l h.
Proof.
  intros Hc. induction h as [|[now op] h IH]; intros s l t Hh Hrel; [reflexivity|].
  destruct (api_step_refines c s l t now op h Hc Hh Hrel) as (Ho & Hr & Hh').
  unfold lim_run, spec_run. cbn [api_run].
  destruct (api_step (lim_acquire c) s now op) as [o s'].
  destruct (api_step (spec_acquire c) l now op) as [o' l']. cbn [fst snd] in *. subst o'.
  f_equal. exact (IH s' l' now Hh' Hr).
Qed.

Theorem lim_refines_ledger c h : cfg_ok c = true -> hist_ok 0 h = true ->
  lim_run c (lim_init c) h = spec_run c [] h.
Proof. intros Hc Hh. exact (lim_refines_ledger_from c Hc h _ _ 0 Hh (lim_rel_init c Hc)). Qed.

Lemma reachable_rel c : cfg_ok c = true ->
  forall h0 rest s l t, hist_ok t (h0 ++ rest) = true -> lim_rel c s l t ->
  exists l' t', lim_rel c (api_final (lim_acquire c) s h0) l' t' /\ hist_ok t' rest = true.
Proof.
  intros Hc. induction h0 as [|[now op] h0 IH]; intros rest s l t Hh Hrel.
  - exists l, t. auto.
  - destruct (api_step_refines c s l t now op _ Hc Hh Hrel) as (_ & Hr & Hh').
    exact (IH rest _ _ now Hh' Hr).
Qed.

(* the states before and after a refused request are related to the same ledger *)
Lemma refusal_invisible_rel c s l t now k maxw :
  cfg_ok c = true -> t <= now -> 1 <= k -> -1 <= maxw -> lim_rel c s l t ->
  fst (lim_acquire c s now k maxw) = -1 ->
  forall h, hist_ok now h = true ->
  lim_run c (snd (lim_acquire c s now k maxw)) h = lim_run c s h.
Proof.
  intros Hc Ht Hk Hm Hrel Href h Hh.
  pose proof (lim_acquire_refines c s l t now k maxw Hc Ht Hk Hm Hrel) as HR.
  pose proof (spec_refusal_no_change c l now k maxw) as Hs.
  destruct (lim_acquire c s now k maxw) as [w s']. destruct (spec_acquire c l now k maxw) as [w' l'].
  cbn [fst snd] in *. destruct HR as [<- Hrel']. rewrite (Hs Href) in Hrel'.
  rewrite (lim_refines_ledger_from c Hc h s' l now Hh Hrel').
  symmetry. exact (lim_refines_ledger_from c Hc h s l t (hist_ok_weaken _ _ h Ht Hh) Hrel).
Qed.

Theorem refusal_invisible c h0 now op h :
  cfg_ok c = true -> hist_ok 0 (h0 ++ (now, op) :: h) = true ->
  let s := api_final (lim_acquire c) (lim_init c) h0 in
  fst (lim_acquire c s now (op_permits op) (op_maxw op)) = -1 ->
  lim_run c (snd (api_step (lim_acquire c) s now op)) h = lim_run c s h.
Proof.
  intros Hc Hh s Href.
  destruct (reachable_rel c Hc h0 _ _ [] 0 Hh (lim_rel_init c Hc)) as (l & t & Hrel & (Hn & Hk & Hm & Hh')%hist_ok_cons).
  rewrite api_step_snd. exact (refusal_invisible_rel c s l t now _ _ Hc Hn Hk Hm Hrel Href h Hh').
Qed.

Theorem capacity_respected c h s : cfg_ok c = true ->
  count (spec_final c [] h) s <= slot_cap c.
Proof.
  intros [Hc _]%cfg_ok_pos. apply spec_capacity; [exact Hc|]. intros q. change (count [] q) with 0. lia.
Qed.

(* finding F1 (repaired in /repo): the roll-over without the cap over-fills a period *)
Definition f1_hist : list (Z * lop) :=
  [(0, OpReserve 3); (2000000001, OpTryAcquire 1); (2000000001, OpTryAcquire 1); (2000000001, OpTryAcquire 1)].

Lemma bursty_overshoot_before_fix :
  map o_val (api_run (bursty_acquire_prefix 2 1000000000) {| b_avail := 2; b_cur := 0 |} f1_hist)
  = [1000000000; 1; 1; 1].
Proof. vm_compute. reflexivity. Qed.
