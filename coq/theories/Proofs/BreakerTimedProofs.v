(* C03: the ten time buckets of timedStats (circuitbreaker/circuitstats.go) with their
   running summary ARE the documented window: the results recorded in the last ten time slices counted from the slice
   of the most recent record.  With the bit ring of Proofs/BreakerProofs.v: for every configuration in the guard and
   every history the code's breaker is the documented machine. *)
From FS Require Import Spec.BreakerSpec Proofs.BreakerProofs.

(* [lia] with division and modulo; the section keeps the setting from the files that import this one *)
Section Timed.
Ltac Zify.zify_post_hook ::= Z.div_mod_to_equations.

Definition slice_of (nanos : Z) (e : Z * bool) : Z := fst e / nanos.

Definition cpair (l : list (Z * bool)) : Z * Z := (count_if (fun b => b) l, count_if negb l).

Definition slot (nanos : Z) (log : list (Z * bool)) (s : Z) : Z * Z :=
  cpair (filter (fun e => slice_of nanos e =? s) log).

Definition win (nanos : Z) (log : list (Z * bool)) (H : Z) : list (Z * bool) :=
  filter (fun e => H - bucket_count <? slice_of nanos e) log.

(* [ts_record]'s update of a pair of counters, as written there *)
Definition tally (v : bool) (p : Z * Z) : Z * Z := if v then (fst p + 1, snd p) else (fst p, snd p + 1).

Lemma cpair_cons e l : cpair (e :: l) = tally (snd e) (cpair l).
Proof. unfold cpair, count_if, tally. cbn [filter fst snd]. destruct (snd e); cbn [negb length fst snd]; f_equal; lia. Qed.

Lemma cpair_nil : cpair [] = (0, 0).
Proof. reflexivity. Qed.

Lemma cpair_len l : fst (cpair l) + snd (cpair l) = Z.of_nat (length l).
Proof. apply count_if_partition. Qed.

Lemma win_step nanos log H :
  cpair (win nanos log (H + 1)) =
  (fst (cpair (win nanos log H)) - fst (slot nanos log (H - 9)), snd (cpair (win nanos log H)) - snd (slot nanos log (H - 9))).
Proof.
  unfold win, slot, bucket_count. induction log as [|e log IH]; [reflexivity|]. cbn [filter].
  (* an entry is in the window at H iff it is in the window at H + 1 (E1) or in slice H - 9 (E2), and not both *)
  replace (H - 10 <? slice_of nanos e) with ((H + 1 - 10 <? slice_of nanos e) || (slice_of nanos e =? H - 9)) by lia.
  destruct (H + 1 - 10 <? slice_of nanos e) eqn:E1, (slice_of nanos e =? H - 9) eqn:E2; cbn [orb];
    rewrite ?cpair_cons, IH; unfold tally; [lia| | |reflexivity].          (* both: excluded; neither: counted nowhere *)
  - (* in both windows *) destruct (snd e); cbn [fst snd]; f_equal; lia.
  - (* in slice H - 9: in the window at H and in the slot *) destruct (snd e); cbn [fst snd]; f_equal; lia.
Qed.

Lemma slot_cons nanos e log s :
  slot nanos (e :: log) s = if slice_of nanos e =? s then tally (snd e) (slot nanos log s) else slot nanos log s.
Proof. unfold slot. cbn [filter]. destruct (slice_of nanos e =? s); [apply cpair_cons|reflexivity]. Qed.

Lemma slot_above nanos log H0 s : (forall e, In e log -> slice_of nanos e <= H0) -> H0 < s -> slot nanos log s = (0, 0).
Proof. intros Hle Hs. unfold slot. rewrite filter_none; [reflexivity|]. intros e He. specialize (Hle e He). lia. Qed.

Lemma win_above nanos log H0 H : (forall e, In e log -> slice_of nanos e <= H0) -> H0 + bucket_count <= H -> win nanos log H = [].
Proof. intros Hle Hs. unfold win. apply filter_none. intros e He. specialize (Hle e He). unfold bucket_count in *. lia. Qed.

(* H0 bounds the slices of the entries; H is the head, which the expiry loop moves on from H0 *)
Record Inv (nanos : Z) (log : list (Z * bool)) (H0 H : Z) (bs : list (Z * Z)) (sum : Z * Z) : Prop := {
  iv_len : length bs = 10%nat;
  iv_sum : sum = cpair (win nanos log H);
  iv_bucket : forall j, 0 <= j < 10 -> nth (Z.to_nat ((H - j) mod 10)) bs (0, 0) = slot nanos log (H - j);
  iv_le : forall e, In e log -> slice_of nanos e <= H0;
  iv_h : H0 <= H }.

Lemma Inv_step nanos log H0 H bs sum :
  Inv nanos log H0 H bs sum ->
  let idx := Z.to_nat ((H + 1) mod 10) in
  Inv nanos log H0 (H + 1) (set_nth idx (0, 0) bs) (fst sum - fst (nth idx bs (0, 0)), snd sum - snd (nth idx bs (0, 0))).
Proof.
  intros [Hl Hs Hb Hle Hh] idx. subst idx.
  rewrite (ring_oldest 10 bs (0, 0) H (fun j => slot nanos log (H - j)) eq_refl Hb). change (H - (10 - 1)) with (H - 9).
  constructor.
  - rewrite set_nth_length. exact Hl.
  - rewrite Hs. symmetry. apply win_step.
  - (* the slice that opens is empty; slice H + 1 - j is slice H - (j - 1) *)
    apply (ring_set 10 bs (0, 0) (H + 1) (0, 0) (fun j => slot nanos log (H + 1 - j)) Hl).
    + rewrite Z.sub_0_r. apply (slot_above nanos log H0); [exact Hle|lia].
    + intros j Hj. replace (H + 1 - j) with (H - (j - 1)) by lia. apply Hb. lia.
  - exact Hle.
  - lia.
Qed.

(* once ten slices have gone by nothing is left: the head may jump *)
Lemma Inv_jump nanos log H0 bs sum H' :
  Inv nanos log H0 (H0 + 10) bs sum -> H0 + 10 <= H' -> Inv nanos log H0 H' bs sum.
Proof.
  intros [Hl Hs Hb Hle Hh] Hj.
  (* every slice above H0 is empty, and at head H0 + 10 each of the ten cells stands for such a slice *)
  assert (Hz : forall r, 0 <= r < 10 -> nth (Z.to_nat r) bs (0, 0) = (0, 0)).
  { intros r Hr. pose proof (Hb ((H0 + 10 - r) mod 10) ltac:(lia)) as Hb'.       (* the distance at which cell r is read *)
    rewrite (slot_above nanos log H0) in Hb' by (exact Hle || lia).
    replace (Z.to_nat r) with (Z.to_nat ((H0 + 10 - (H0 + 10 - r) mod 10) mod 10)) by lia. exact Hb'. }
  constructor.
  - exact Hl.
  - (* both windows are empty *)
    rewrite Hs, (win_above nanos log H0 (H0 + 10)), (win_above nanos log H0 H') by (exact Hle || (unfold bucket_count; lia)).
    reflexivity.
  - (* the slices read from H' are empty too *)
    intros j Hj'. rewrite (slot_above nanos log H0) by (exact Hle || lia). apply Hz. lia.
  - exact Hle.
  - lia.
Qed.

Lemma Inv_record nanos log H0 H bs sum now v :
  Inv nanos log H0 H bs sum -> now / nanos = H ->
  let idx := Z.to_nat (H mod 10) in
  Inv nanos ((now, v) :: log) H H (set_nth idx (tally v (nth idx bs (0, 0))) bs) (tally v sum).
Proof.
  intros [Hl Hs Hb Hle Hh] Es idx. change (slice_of nanos (now, v) = H) in Es. constructor.
  - rewrite set_nth_length. exact Hl.
  - unfold win. cbn [filter]. rewrite Es. replace (H - bucket_count <? H) with true by (unfold bucket_count; lia).
    rewrite cpair_cons. fold (win nanos log H). rewrite <- Hs. reflexivity.
  - apply (ring_set 10 _ (0, 0) H _ (fun j => slot nanos ((now, v) :: log) (H - j)) Hl).
    + specialize (Hb 0 ltac:(lia)). rewrite Z.sub_0_r in *. rewrite slot_cons, Es, Z.eqb_refl, <- Hb. reflexivity.
    + intros j Hj. rewrite slot_cons, Es. replace (H =? H - j) with false by lia. apply Hb. lia.
  - intros e [<-|He]; [rewrite Es; lia|]. specialize (Hle e He). lia.
  - lia.
Qed.

Lemma Inv_current nanos log t now :
  Inv nanos log (ts_head t) (ts_head t) (ts_buckets t) (ts_sum t) -> ts_head t <= now / ts_nanos t ->
  let t' := ts_current t now in
  ts_nanos t' = ts_nanos t /\ ts_head t' = now / ts_nanos t
  /\ Inv nanos log (ts_head t) (ts_head t') (ts_buckets t') (ts_sum t').
Proof.
  intros HI Hle. unfold ts_current.
  destruct (ts_head t <? now / ts_nanos t) eqn:E; [|split; [reflexivity|split; [lia|exact HI]]].     (* else: the same slice *)
  rewrite pair_let. cbn [ts_nanos ts_head ts_buckets ts_sum]. do 2 (split; [reflexivity|]).
  set (move := Z.min bucket_count (now / ts_nanos t - ts_head t)).
  (* the expiry loop: [move] steps of [Inv_step], from head + 0 to head + 0 + move (He) *)
  rewrite <- (Z.add_0_r (ts_head t)) in HI at 2.
  pose proof (ts_expire_rule (fun H => Inv nanos log (ts_head t) H) (Inv_step nanos log _) (Z.to_nat move) _ _ _ _ HI) as He.
  unfold bucket_count in *. destruct (Z_le_gt_dec (now / ts_nanos t - ts_head t) 10).
  - replace (ts_head t + 0 + _) with (now / ts_nanos t) in He by (subst move; lia). exact He.
  - (* the loop stops after ten steps *)
    replace (ts_head t + 0 + _) with (ts_head t + 10) in He by (subst move; lia). apply Inv_jump; [exact He|lia].
Qed.

Record Rtimed (nanos : Z) (t : Z) (ts : tstats) (log : list (Z * bool)) : Prop := {
  rt_nanos : ts_nanos ts = nanos; rt_pos : 1 <= nanos; rt_t : 0 <= t;
  rt_inv : Inv nanos log (ts_head ts) (ts_head ts) (ts_buckets ts) (ts_sum ts);
  rt_head : match log with [] => ts_head ts = 0 | (tn, _) :: _ => ts_head ts = tn / nanos end;
  rt_time : forall e, In e log -> fst e <= t }.

Lemma Rtimed_new period t : 10 <= period -> 0 <= t -> Rtimed (period / bucket_count) t (ts_new period) [].
Proof.
  intros Hp Ht. unfold bucket_count.
  constructor; cbn [ts_new ts_nanos ts_head ts_buckets ts_sum]; [reflexivity|lia|exact Ht| |reflexivity|intros e []].
  constructor; [reflexivity|reflexivity| |intros e []|lia].
  intros j Hj. apply (nth_repeat (A := Z * Z)).
Qed.

Lemma Rtimed_record nanos t ts log now v :
  Rtimed nanos t ts log -> t <= now -> Rtimed nanos now (ts_record ts now v) ((now, v) :: log).
Proof.
  intros [Hn Hp Ht HI Hh Htime] Hnow.
  (* the head is the slice of the newest entry (0 if there is none), and that entry is not after [now] *)
  assert (Hle : ts_head ts <= now / ts_nanos ts).
  { rewrite Hn. destruct log as [|[tn b] log'].
    - rewrite Hh. apply Z.div_pos; lia.
    - rewrite Hh. apply Z.div_le_mono; [lia|]. specialize (Htime (tn, b) (or_introl eq_refl)). cbn in Htime. lia. }
  pose proof (Inv_current nanos log ts now HI Hle) as (En & Eh & HI'). cbv zeta in *.
  unfold ts_record. set (t' := ts_current ts now) in *. rewrite Hn, Eh in *.
  constructor; cbn [ts_nanos ts_head ts_buckets ts_sum]; [exact En|exact Hp|lia| |reflexivity| ].
  - (* what [ts_record] does to the head's cell and to the summary is [tally] *)
    exact (Inv_record nanos log _ _ _ _ now v HI' eq_refl).
  - intros e [<-|He]; [cbn; lia|]. specialize (Htime e He). lia.
Qed.

Lemma Rtimed_obs nanos t ts log : Rtimed nanos t ts log ->
  let a := {| a_kind := WTimed nanos; a_log := log |} in
  fst (ts_sum ts) + snd (ts_sum ts) = Z.of_nat (length (a_window a))
  /\ snd (ts_sum ts) = count_if negb (a_window a) /\ fst (ts_sum ts) = count_if (fun b => b) (a_window a).
Proof.
  intros [Hn Hp Ht [Hl Hs Hb Hle0 Hh0] Hh Htime] a. unfold a_window, a. cbn [a_kind a_log].
  destruct log as [|[tn b] log'].
  - rewrite Hs. cbn. auto.
  - rewrite Hh in Hs. change (filter _ ((tn, b) :: log')) with (win nanos ((tn, b) :: log') (tn / nanos)).
    rewrite Hs. repeat split; try reflexivity. apply cpair_len.
Qed.

Inductive Rall (t : Z) : stats -> astats -> Prop :=
  | Rall_count cap c log : Rcount cap c log -> Rall t (SC c) {| a_kind := WCount cap; a_log := log |}
  | Rall_timed nanos ts log : Rtimed nanos t ts log -> Rall t (ST ts) {| a_kind := WTimed nanos; a_log := log |}.

Lemma Rall_obs t st a : Rall t st a ->
  si_exec conc_impl st = si_exec abs_impl a /\ si_fail conc_impl st = si_fail abs_impl a
  /\ si_succ conc_impl st = si_succ abs_impl a.
Proof. intros [cap c log []|nanos ts log H]; [repeat split; assumption|apply (Rtimed_obs _ _ _ _ H)]. Qed.

Lemma Rall_rec t st a now v : Rall t st a -> t <= now ->
  Rall now (si_record conc_impl st now v) (si_record abs_impl a now v).
Proof.
  intros [cap c log H|nanos ts log H] Ht; constructor; [apply Rcount_record|apply (Rtimed_record nanos t)]; assumption.
Qed.

Theorem breaker_refines_windows c h :
  bcfg_ok c = true -> bhist_ok 0 h = true -> cb_run c h = spec_brun c h.
Proof.
  intros Hok Hh. unfold bcfg_ok in Hok.
  (* fresh statistics correspond.  Closed: the time buckets if a period is configured, else a bit ring; half-open: a bit ring *)
  assert (Hnewc : forall t, 0 <= t -> Rall t (si_new_closed conc_impl c) (si_new_closed abs_impl c)).
  { intros t Ht. cbn [conc_impl abs_impl si_new_closed]. destruct (negb (b_fperiod c =? 0)) eqn:E; constructor.
    - apply Rtimed_new; lia.
    - apply Rcount_new. lia. }
  assert (Hnewh : forall t, 0 <= t -> Rall t (si_new_half conc_impl c) (si_new_half abs_impl c))
    by (intros t _; constructor; apply Rcount_new; lia).
  apply (brun_sim conc_impl abs_impl Rall c Rall_obs Rall_rec Hnewc Hnewh h 0 0); [lia|constructor; apply Hnewc; lia|exact Hh].
Qed.
End Timed.
