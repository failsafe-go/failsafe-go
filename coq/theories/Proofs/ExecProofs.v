(* First what every Exec proof file shares: lists, the fields an operation of Model/Exec.v never touches, the
   chronological loop ([advance_rel]).  Then theorems about single layers, policy by policy, each for an ARBITRARY inner
   layer, hence for every composition and depth below it. *)
From FS Require Import Model.Exec Proofs.Trace.

Lemma nth_upd_same {A} (l : list A) n f d : (n < length l)%nat -> nth n (upd n f l) d = f (nth n l d).
Proof. revert n; induction l as [|x l IH]; intros [|n] H; cbn in *; try lia; auto. apply IH; lia. Qed.

Lemma nth_upd_other {A} (l : list A) n m f d : n <> m -> nth m (upd n f l) d = nth m l d.
Proof.
  revert n m. induction l as [|x l IH]; intros n m H; [destruct n; reflexivity|].
  destruct n as [|n], m as [|m]; cbn [upd nth]; try reflexivity; [contradiction|]. apply IH. lia.
Qed.

Lemma nth_upd_inv {A} (P : A -> Prop) (l : list A) n m f d : (forall x, P x -> P (f x)) -> P (nth m l d) -> P (nth m (upd n f l) d).
Proof. intros Hf. revert n m. induction l as [|x l IH]; intros [|n] [|m]; cbn [upd nth]; auto. Qed.

Lemma nth_upd_proj {A B} (p : A -> B) (f : A -> A) : (forall x, p (f x) = p x) ->
  forall l n m d, p (nth m (upd n f l) d) = p (nth m l d).
Proof. intros H l n m d. apply (nth_upd_inv (fun x => p x = p (nth m l d))); [intros x <-; apply H|reflexivity]. Qed.

Lemma upd_length {A} (l : list A) n f : length (upd n f l) = length l.
Proof. revert n; induction l as [|x l IH]; intros [|n]; cbn; auto. Qed.

Lemma Forall_upd {A} (P : A -> Prop) (l : list A) n f : Forall P l -> (forall x, P x -> P (f x)) -> Forall P (upd n f l).
Proof. intros H Hf. revert n. induction H as [|x l Hx Hl IH]; intros [|n]; cbn; constructor; auto. Qed.

Lemma bg_earliest_In l b : bg_earliest l = Some b -> In b l.
Proof.
  revert b. induction l as [|x l IH]; intros b H; cbn [bg_earliest] in H; [discriminate|].
  destruct (bg_earliest l) as [b'|]; [|injection H as <-; left; reflexivity].
  destruct (bg_finish b' <? bg_finish x); injection H as <-; [right; apply IH; reflexivity|left; reflexivity].
Qed.

(* The [_same] lemmas: an operation does not change what [f] reads if none of the fields it writes does; each lemma asks
   for just those fields. *)
Lemma stamp_same {X} (f : world -> X) : (forall w t, f (set_trace w t) = f w) -> forall w c, f (stamp w c) = f w.
Proof. intros H w c. unfold stamp. destruct (w_trace w); [reflexivity|apply H]. Qed.

Section Cancel.
  Context {X : Type} (f : world -> X).
  Hypothesis f_scopes : forall w l q e, f (set_scopes w l q e) = f w.
  Hypothesis f_trace : forall w t, f (set_trace w t) = f w.
  Hypothesis f_cell : forall w x, f (set_cell w x) = f w.
  Hypothesis f_copies : forall w l, f (set_copies w l) = f w.

  Lemma mark_done_same w s e : f (mark_done w s e) = f w.
  Proof. unfold mark_done. destruct (sc_done _); [reflexivity|apply f_scopes]. Qed.

  Lemma fire_timeout_same w s : f (fire_timeout w s) = f w.
  Proof.
    unfold fire_timeout, set_copy_last, emit. destruct (copy_err _ _); rewrite ?mark_done_same, ?f_copies, ?f_cell; rewrite f_trace; apply f_scopes.
  Qed.

  Lemma fire_ext_same w e : f (fire_ext w e) = f w.
  Proof.
    unfold fire_ext, set_copy_last. destruct e; try (rewrite mark_done_same; apply f_scopes).
    destruct (copy_err _ _); rewrite ?mark_done_same, ?f_copies, ?f_cell; apply f_scopes.
  Qed.

  Lemma cancel_copy_same w cs : f (cancel_copy w cs) = f w.
  Proof. unfold cancel_copy. destruct (copy_err _ _); [reflexivity|]. rewrite mark_done_same. apply f_cell. Qed.

  Lemma cancel_others_same started : forall w i winner, f (cancel_others w started i winner) = f w.
  Proof.
    induction started as [|cs rest IH]; intros w i winner; cbn [cancel_others]; [reflexivity|].
    rewrite IH. destruct (Nat.eqb i winner); [reflexivity|apply cancel_copy_same].
  Qed.
End Cancel.

Lemma refresh_bg_same {X} (f : world -> X) :
  (forall w bg, f (set_hedge w (w_hedges w) bg (w_hs w)) = f w) -> (forall w, f (set_oof w) = f w) -> forall w, f (refresh_bg w) = f w.
Proof. intros Hh Ho w. unfold refresh_bg. destruct (existsb _ _); rewrite ?Ho; apply Hh. Qed.

Lemma finish_bg_same {X} (f : world -> X) :
  (forall w bg hs, f (set_hedge w (w_hedges w) bg hs) = f w) -> (forall w x, f (set_counters w (w_attempts w) (w_retries w) x) = f w) ->
  (forall w t, f (set_trace w t) = f w) -> forall w b, f (finish_bg w b) = f w.
Proof.
  intros Hh Hc Ht w b. unfold finish_bg.
  set (w1 := set_hedge w _ _ _). set (w2 := set_counters w1 _ _ _). set (w3 := stamp _ _).
  transitivity (f w3); [destruct (Nat.eqb _ _); [apply Hh|reflexivity]|].
  subst w3. rewrite (stamp_same f) by exact Ht. unfold emit. rewrite Ht. subst w2. rewrite Hc. apply Hh.
Qed.

Lemma nt_go_spec l : forall i acc t s,
  nt_go i l acc = Some (t, Some s) ->
  acc = Some (t, Some s) \/ ((i <= s)%nat /\ sc_deadline (nth (s - i) l dflt_scope) = Some t).
Proof.
  induction l as [|sc l IH]; intros i acc t s H; cbn [nt_go] in H; [left; exact H|].
  apply IH in H. destruct H as [H|[Hi H]].
  - destruct (sc_deadline sc) as [d|] eqn:Ed; [|left; exact H].
    destruct acc as [[t1 o1]|].
    + destruct (d <? t1); [|left; exact H]. injection H as -> ->. right. split; [lia|]. rewrite Nat.sub_diag. exact Ed.
    + injection H as -> ->. right. split; [lia|]. rewrite Nat.sub_diag. exact Ed.
  - right. split; [lia|]. replace (s - i)%nat with (S (s - S i)) by lia. exact H.
Qed.

Theorem next_timer_deadline w t s : next_timer w = Some (t, Some s) -> sc_deadline (get_scope w s) = Some t.
Proof.
  unfold next_timer, get_scope. intros H. apply nt_go_spec in H. destruct H as [H|[_ H]].
  - destruct (w_ext w) as [[? ?]|]; discriminate.
  - rewrite Nat.sub_0_r in H. exact H.
Qed.

(* The chronological loop, once: a preorder on worlds that contains what one turn of [advance] may do -- the hypotheses:
   clock, schedule-dependence flag, return of a background attempt, callback of a Timeout whose deadline is pending,
   external cancellation, rescheduling of cooperative attempts -- contains [advance]. *)
Section Advance.
  Variable R : world -> world -> Prop.
  Hypothesis R_refl : forall w, R w w.
  Hypothesis R_trans : forall a b c, R a b -> R b c -> R a c.
  Hypothesis R_now : forall w t, R w (set_now w (Z.max (w_now w) t)).
  Hypothesis R_oof : forall w, R w (set_oof w).
  Hypothesis R_bg : forall w b, In b (w_bg w) -> R w (finish_bg w b).
  Hypothesis R_timeout : forall w t s, sc_deadline (get_scope w s) = Some t -> R w (fire_timeout w s).
  Hypothesis R_ext : forall w e, R w (fire_ext w e).
  Hypothesis R_refresh : forall w, R w (refresh_bg w).

  Lemma settle_rel w t : R w (settle w t).
  Proof. destruct t; [apply R_now|apply R_refl]. Qed.

  Lemma advance_rel fuel : forall w t intr acc, R w (snd (advance fuel w t intr acc)).
  Proof.
    induction fuel as [|fuel IH]; intros w t intr acc; cbn [advance];
      (destruct (match intr with Some c => _ | None => false end); cbn [snd]; [apply R_refl|]);
      (destruct (acc && _); cbn [snd]; [apply R_refl|]); [apply settle_rel|].
    assert (R0 : forall (c : bool) t', R w (set_now (if c then set_oof w else w) (Z.max (w_now (if c then set_oof w else w)) t')))
      by (intros [|] t'; [eapply R_trans; [apply R_oof|]|]; apply R_now).
    match goal with |- context [if ?c then _ else _] => destruct c end.   (* [bg_first]: which comes first *)
    - destruct (bg_earliest (w_bg w)) as [b|] eqn:Eb; [|apply settle_rel].
      destruct (due (bg_finish b) t); [|apply settle_rel].
      eapply R_trans; [|apply IH]. eapply R_trans; [apply R0|]. apply R_bg.
      apply bg_earliest_In in Eb. match goal with |- context [if ?c then _ else _] => destruct c end; exact Eb.   (* the tie test *)
    - destruct (next_timer w) as [[tt src]|] eqn:Ent; [|apply settle_rel].
      destruct (due tt t); [|apply settle_rel].
      eapply R_trans; [|apply IH]. eapply R_trans; [|apply R_refresh]. eapply R_trans; [apply R0|].
      destruct src as [s|]; [|destruct (w_ext w) as [[? e]|]; [apply R_ext|apply R_refl]].
      apply (R_timeout _ tt). apply next_timer_deadline in Ent.
      match goal with |- context [if ?c then _ else _] => destruct c end; exact Ent.   (* the tie test *)
  Qed.
End Advance.

Lemma is_canceled_none w c : is_canceled w c = None -> copy_err w c = None.
Proof. unfold is_canceled. destruct (copy_err w c); [discriminate|reflexivity]. Qed.

Lemma advance_exit fuel : forall w t intr acc,
  let '(i, w') := advance fuel w t intr acc in
  if i then exists c, intr = Some c /\ copy_err w' c <> None
  else (acc = true /\ hs_acc (w_hs w') <> None) \/ forall e, t = Some e -> e <= w_now w'.
Proof.
  (* the statement does not mention the world the wait starts in, so the induction hypothesis covers a turn of the loop;
     what is left are the three ways out *)
  assert (Hs : forall w t, forall e, t = Some e -> e <= w_now (settle w t)) by (intros w t e ->; cbn; lia).
  induction fuel as [|fuel IH]; intros w t intr acc; cbn [advance].
  all: destruct (match intr with Some c => _ | None => false end) eqn:Ei;
    [destruct intr as [c|]; [exists c; destruct (copy_err w c); [split; [reflexivity|discriminate]|discriminate]|discriminate]|].
  all: destruct (acc && _) eqn:Ea; [left; destruct acc, (hs_acc (w_hs w)); try discriminate; split; [reflexivity|discriminate]|].
  - right. apply Hs.
  - match goal with |- context [if ?c then _ else _] => destruct c end.
    + destruct (bg_earliest (w_bg w)) as [b|]; [|right; apply Hs]. destruct (due _ t); [apply IH|right; apply Hs].
    + destruct (next_timer w) as [[tt src]|]; [|right; apply Hs]. destruct (due tt t); [apply IH|right; apply Hs].
Qed.

Section AdvanceSame.
  Context {X : Type} (f : world -> X).
  Hypothesis f_now : forall w t, f (set_now w t) = f w.
  Hypothesis f_oof : forall w, f (set_oof w) = f w.
  Hypothesis f_hedge : forall w bg hs, f (set_hedge w (w_hedges w) bg hs) = f w.
  Hypothesis f_exec : forall w x, f (set_counters w (w_attempts w) (w_retries w) x) = f w.
  Hypothesis f_trace : forall w t, f (set_trace w t) = f w.
  Hypothesis f_scopes : forall w l q e, f (set_scopes w l q e) = f w.
  Hypothesis f_cell : forall w x, f (set_cell w x) = f w.
  Hypothesis f_copies : forall w l, f (set_copies w l) = f w.

  Lemma advance_same fuel w t intr acc : f (snd (advance fuel w t intr acc)) = f w.
  Proof.
    revert w t intr acc. apply (advance_rel (fun w w' => f w' = f w)).
    - reflexivity.
    - congruence.
    - intros w t. apply f_now.
    - exact f_oof.
    - intros w b _. apply (finish_bg_same f); assumption.
    - intros w t s _. apply (fire_timeout_same f); assumption.
    - intros w e. apply (fire_ext_same f); assumption.
    - apply (refresh_bg_same f); [intros w bg; apply f_hedge|exact f_oof].
  Qed.

  Lemma wait_same w d intr : f (snd (wait w d intr)) = f w.
  Proof. apply advance_same. Qed.

  Lemma pause_same w d : f (pause w d) = f w.
  Proof. unfold pause. destruct (0 <? d); [apply wait_same|reflexivity]. Qed.
End AdvanceSame.

(* C11, C01: a hit returns the cached value with no error and runs nothing inside the cache policy: the world only gains
   the hit event *)
Theorem cache_hit_skips_inner pos inst cfg (inner : layer) c w v :
  cache_key w cfg <> 0 -> cache_get (nth inst (w_caches w) []) (cache_key w cfg) = Some v ->
  cache_layer pos inst cfg inner c w = (all_true (v, None), emit w KCacheHit pos (v, None) 0).
Proof.
  intros Hk Hg. unfold cache_layer. destruct (cache_key w cfg =? 0) eqn:E; [lia|]. rewrite Hg. reflexivity.
Qed.

Definition cacheable (cfg : cache_cfg) (o : outcome) : bool :=
  (match ca_conds cfg with [] => true | _ => false end && negb (has_err o)) || applies_to_any (ca_conds cfg) o.

Lemma cache_layer_miss pos inst cfg (inner : layer) c w :
  (cache_key w cfg = 0 \/ cache_get (nth inst (w_caches w) []) (cache_key w cfg) = None) ->
  cache_layer pos inst cfg inner c w =
    let '(r, w2) := inner c (stamp (emit w KCacheMiss pos (snapshot w c) 0) c) in
    if cacheable cfg (pr_out r) && negb (cache_key w cfg =? 0)
    then (r, ev_with_result (set_insts w2 (w_breakers w2) (w_limiters w2) (w_bulkheads w2)
                               (upd inst (fun _ => cache_set (nth inst (w_caches w2) []) (cache_key w cfg) (pr_res r)) (w_caches w2)))
                            c KCached pos r)
    else (r, w2).
Proof.
  intros H. unfold cache_layer. destruct (cache_key w cfg =? 0) eqn:E; [reflexivity|]. destruct H as [H| ->]; [lia|reflexivity].
Qed.

(* C11: a miss returns the inner result unchanged (value, error and flags) *)
Theorem cache_miss_returns_inner pos inst cfg (inner : layer) c w :
  (cache_key w cfg = 0 \/ cache_get (nth inst (w_caches w) []) (cache_key w cfg) = None) ->
  fst (cache_layer pos inst cfg inner c w) = fst (inner c (stamp (emit w KCacheMiss pos (snapshot w c) 0) c)).
Proof. intros H. rewrite cache_layer_miss by exact H. destruct (inner c _) as [r w2]. destruct (_ && _); reflexivity. Qed.

(* C11: after a miss the store of this cache instance is updated at the effective key iff the result is cacheable and
   the key is not empty *)
Theorem cache_stored_iff_cacheable pos inst cfg (inner : layer) c w :
  (cache_key w cfg = 0 \/ cache_get (nth inst (w_caches w) []) (cache_key w cfg) = None) ->
  let w1 := stamp (emit w KCacheMiss pos (snapshot w c) 0) c in
  let r := fst (inner c w1) in let w2 := snd (inner c w1) in
  w_caches (snd (cache_layer pos inst cfg inner c w)) =
    if cacheable cfg (pr_out r) && negb (cache_key w cfg =? 0)
    then upd inst (fun _ => cache_set (nth inst (w_caches w2) []) (cache_key w cfg) (pr_res r)) (w_caches w2)
    else w_caches w2.
Proof.
  intros H. rewrite cache_layer_miss by exact H. cbv zeta. destruct (inner c _) as [r w2]. cbn [fst snd].
  destruct (_ && _); reflexivity.
Qed.

Definition fb_inner_classified (pos : nat) (cfg : fb_cfg) (c : nat) (r : presult) (w1 : world) : presult * world :=
  if is_failure (fb_fpol cfg) (pr_out r) then (with_failure r, ev_with_result w1 c KPolFailure pos (with_failure r))
  else (with_done r true true, ev_with_result w1 c KPolSuccess pos (with_done r true true)).

(* C10, C16: a result the fallback does not handle passes through; the fallback is not applied *)
Theorem fallback_unhandled_passes_through pos cfg (inner : layer) c w :
  let r := fst (inner c w) in let w1 := snd (inner c w) in
  is_failure (fb_fpol cfg) (pr_out r) = false ->
  fallback_layer pos cfg inner c w = (with_done r true true, ev_with_result w1 c KPolSuccess pos (with_done r true true)).
Proof.
  cbv zeta. unfold fallback_layer. destruct (inner c w) as [r w1]. cbn [fst snd]. intros H. rewrite H. reflexivity.
Qed.

(* C10: a handled failure, cancelled neither at w2 nor at w3: the fallback is applied once, to the failed result and
   error; its output replaces the result and is classified by the same conditions *)
Theorem fallback_handled_replaces pos cfg (inner : layer) c w :
  let r := fst (inner c w) in let w1 := snd (inner c w) in
  let w2 := pause (ev_with_result w1 c KPolFailure pos (with_failure r)) (fb_lsn_dur cfg) in
  let w3 := pause w2 (fb_dur cfg) in
  is_failure (fb_fpol cfg) (pr_out r) = true -> is_canceled w2 c = None -> is_canceled w3 c = None ->
  let seen := (pr_res r, match pr_err r with Some e => Some e | None => copy_err w2 c end) in
  let o := fb_apply (fb_kind_of cfg) seen in
  let ok := negb (is_failure (fb_fpol cfg) o) in
  fallback_layer pos cfg inner c w =
    ({| pr_res := fst o; pr_err := snd o; pr_done := true; pr_succ := ok; pr_all := ok |},
     emit w3 KFallbackExecuted pos o 0).
Proof.
  cbv zeta. unfold fallback_layer. destruct (inner c w) as [r w1]. cbn [fst snd]. intros H Hc Hc'. rewrite H.
  cbn [pr_succ with_failure]. rewrite Hc, Hc'. reflexivity.
Qed.

(* C10, C08: a cancelled execution does not enter the fallback function: the cancellation is looked at after the failure
   listener has returned, not before *)
Theorem fallback_not_applied_when_cancelled pos cfg (inner : layer) c w cr :
  let r := fst (inner c w) in let w1 := snd (inner c w) in
  let w2 := pause (ev_with_result w1 c KPolFailure pos (with_failure r)) (fb_lsn_dur cfg) in
  is_failure (fb_fpol cfg) (pr_out r) = true -> is_canceled w2 c = Some cr ->
  fallback_layer pos cfg inner c w = (cr, w2).
Proof.
  cbv zeta. unfold fallback_layer. destruct (inner c w) as [r w1]. cbn [fst snd]. intros H Hc. rewrite H.
  cbn [pr_succ with_failure]. rewrite Hc. reflexivity.
Qed.

(* C10, C08: a cancellation that arrives while the fallback function runs *)
Theorem fallback_output_dropped_when_cancelled_meanwhile pos cfg (inner : layer) c w cr :
  let r := fst (inner c w) in let w1 := snd (inner c w) in
  let w2 := pause (ev_with_result w1 c KPolFailure pos (with_failure r)) (fb_lsn_dur cfg) in
  let w3 := pause w2 (fb_dur cfg) in
  is_failure (fb_fpol cfg) (pr_out r) = true -> is_canceled w2 c = None -> is_canceled w3 c = Some cr ->
  fallback_layer pos cfg inner c w = (cr, w3).
Proof.
  cbv zeta. unfold fallback_layer. destruct (inner c w) as [r w1]. cbn [fst snd]. intros H Hc Hc'. rewrite H.
  cbn [pr_succ with_failure]. rewrite Hc, Hc'. reflexivity.
Qed.

(* C01: a policy that rejects does not run what it wraps *)
Theorem breaker_rejection_skips_inner pos inst (inner inner' : layer) c w :
  let '(cfg, s) := nth inst (w_breakers w) (bcfg_default, cb_init bcfg_default) in
  fst (fst (try_acquire conc_impl cfg s (w_now w))) = false ->
  breaker_layer pos inst inner c w = breaker_layer pos inst inner' c w
  /\ pr_err (fst (breaker_layer pos inst inner c w)) = Some EOpen.
Proof.
  unfold breaker_layer. destruct (nth inst (w_breakers w) _) as [cfg s].
  destruct (try_acquire conc_impl cfg s (w_now w)) as [[ok s1] evs]. cbn [fst]. intros ->. cbn [negb]. auto.
Qed.

Theorem limiter_rejection_skips_inner pos inst mw (inner inner' : layer) c w :
  let '(cfg, base, s) := nth inst (w_limiters w) (Smooth 1, 0, SSmooth 0) in
  fst (lim_acquire cfg s (w_now w - base) 1 mw) = -1 ->
  limiter_layer pos inst mw inner c w = limiter_layer pos inst mw inner' c w
  /\ pr_err (fst (limiter_layer pos inst mw inner c w)) = Some ERate.
Proof.
  unfold limiter_layer, limiter_layer_gen. destruct (nth inst (w_limiters w) _) as [[cfg base] s].
  destruct (lim_acquire cfg s (w_now w - base) 1 mw) as [wt s']. cbn [fst]. intros ->. cbn. auto.
Qed.

Theorem bulkhead_full_skips_inner pos inst (inner inner' : layer) c w :
  let '(cap, held) := nth inst (w_bulkheads w) (0, 0) in
  cap <= held -> copy_err w c = None ->
  bulkhead_layer pos inst 0 inner c w = bulkhead_layer pos inst 0 inner' c w
  /\ pr_err (fst (bulkhead_layer pos inst 0 inner c w)) = Some EFull.
Proof.
  unfold bulkhead_layer. destruct (nth inst (w_bulkheads w) (0, 0)) as [cap held]. intros H Hc. rewrite Hc.
  destruct (held <? cap) eqn:E; [lia|]. cbn. auto.
Qed.

(* C01, C16: the outermost layer's result, and the two events that close the log *)
Theorem execute_outermost_and_verdict fuel stack w :
  let '(r, w1) := compose fuel 0 stack (length stack) 0%nat w in
  fst (execute fuel stack w) = r /\
  exists e1 e2, w_trace (snd (execute fuel stack w)) = e2 :: e1 :: w_trace w1
    /\ e_kind e2 = KExecDone /\ e_kind e1 = (if pr_all r then KExecSuccess else KExecFailure)
    /\ e_out e1 = pr_out r /\ e_out e2 = pr_out r.
Proof.
  unfold execute. destruct (compose fuel 0 stack (length stack) 0%nat w) as [r w1]. cbn [fst snd]. split; [reflexivity|].
  destruct (pr_all r); eexists _, _; cbn; repeat split.
Qed.

Lemma get_rstate_ext w w' pos : w_retry w' = w_retry w -> get_rstate w' pos = get_rstate w pos.
Proof. unfold get_rstate. intros ->. reflexivity. Qed.

Lemma get_put_rstate w pos r : get_rstate (put_rstate w pos r) pos = r.
Proof. unfold get_rstate, put_rstate. cbn [w_retry set_retry find fst snd]. rewrite Nat.eqb_refl. reflexivity. Qed.

Lemma get_put_rstate_other w q r p0 : q <> p0 -> get_rstate (put_rstate w q r) p0 = get_rstate w p0.
Proof.
  intros Hne. unfold get_rstate, put_rstate. cbn [w_retry set_retry find fst].
  rewrite (proj2 (Nat.eqb_neq q p0) Hne).
  rewrite find_filter; [reflexivity|].
  intros [a b] Ha. apply Nat.eqb_eq in Ha. cbn [fst] in *. subst a. apply negb_true_iff, Nat.eqb_neq. exact (not_eq_sym Hne).
Qed.

Lemma get_rstate_stamp w c p : get_rstate (stamp w c) p = get_rstate w p.
Proof. apply get_rstate_ext, (stamp_same w_retry). reflexivity. Qed.

Lemma get_rstate_ev w c k q r p : get_rstate (ev_with_result w c k q r) p = get_rstate w p.
Proof. exact (get_rstate_stamp _ c p). Qed.

Lemma get_rstate_pause w d p : get_rstate (pause w d) p = get_rstate w p.
Proof. apply get_rstate_ext, (pause_same w_retry); reflexivity. Qed.

(* OnFailure of a retry policy as one equation; the failure is charged to the ledger the execution arrived with (the
   listener's pause does not touch it) *)
Lemma retry_on_failure_eq cfg pos c r w :
  let w0 := pause (ev_with_result w c KPolFailure pos r) (r_lsn_dur cfg) in
  let failed := rs_failed (get_rstate w pos) + 1 in
  let ex := (negb (r_max_retries cfg =? -1) && (r_max_retries cfg <? failed))
            || (negb (r_max_duration cfg =? 0) && (r_max_duration cfg <? w_now w0 - w_start w0)) in
  let ab := is_abortable (r_abort cfg) (pr_out r) in
  let w1 := put_rstate w0 pos {| rs_failed := failed; rs_exceeded := ex |} in
  let w2 := if ab then ev_with_result w1 c KAbort pos r else w1 in
  retry_on_failure cfg pos c r w =
    (if ex && negb (r_return_last cfg) then failure_result (EExceeded (pr_res r) (pr_err r))
     else with_done r (ab || negb (negb ab && negb ex && ((r_max_retries cfg =? -1) || (0 <? r_max_retries cfg)))) false,
     if ex && negb ab then ev_with_result w2 c KRetriesExceeded pos r else w2).
Proof.
  cbv zeta. unfold retry_on_failure. rewrite get_rstate_pause, get_rstate_ev.
  destruct (_ || _); [|reflexivity]. destruct (is_abortable _ _), (r_return_last cfg); reflexivity.
Qed.

Lemma retry_on_failure_ledger cfg pos c r w :
  let w0 := pause (ev_with_result w c KPolFailure pos r) (r_lsn_dur cfg) in
  let failed := rs_failed (get_rstate w pos) + 1 in
  get_rstate (snd (retry_on_failure cfg pos c r w)) pos =
    {| rs_failed := failed;
       rs_exceeded := (negb (r_max_retries cfg =? -1) && (r_max_retries cfg <? failed))
                      || (negb (r_max_duration cfg =? 0) && (r_max_duration cfg <? w_now w0 - w_start w0)) |}.
Proof.
  rewrite retry_on_failure_eq. cbv zeta. cbn [snd].
  destruct (_ && negb _), (is_abortable _ _); rewrite ?get_rstate_ev; apply get_put_rstate.
Qed.

Lemma retry_on_failure_rstate cfg pos c r w :
  let w0 := pause (ev_with_result w c KPolFailure pos r) (r_lsn_dur cfg) in
  let rs := get_rstate w0 pos in
  let failed := rs_failed rs + 1 in
  let exceeded := (negb (r_max_retries cfg =? -1) && (r_max_retries cfg <? failed))
                  || (negb (r_max_duration cfg =? 0) && (r_max_duration cfg <? w_now w0 - w_start w0)) in
  get_rstate (snd (retry_on_failure cfg pos c r w)) pos = {| rs_failed := failed; rs_exceeded := exceeded |}
  /\ (exceeded = true -> pr_done (fst (retry_on_failure cfg pos c r w)) = true)
  /\ (exceeded = true -> r_return_last cfg = false ->
        fst (retry_on_failure cfg pos c r w) = failure_result (EExceeded (pr_res r) (pr_err r)))
  /\ (exceeded = true -> r_return_last cfg = true -> pr_out (fst (retry_on_failure cfg pos c r w)) = pr_out r)
  /\ (is_abortable (r_abort cfg) (pr_out r) = true -> pr_done (fst (retry_on_failure cfg pos c r w)) = true).
Proof.
  cbv zeta. rewrite get_rstate_pause, get_rstate_ev. split; [apply retry_on_failure_ledger|].
  rewrite retry_on_failure_eq. cbv zeta. cbn [fst].
  destruct (_ || _), (is_abortable _ _), (r_return_last cfg); cbn; repeat split; intros; first [reflexivity|discriminate].
Qed.

Lemma retry_on_failure_not_success cfg pos c r w : pr_succ (fst (retry_on_failure cfg pos c r w)) = false.
Proof. rewrite retry_on_failure_eq. cbn [fst]. destruct (_ && _); reflexivity. Qed.

Lemma retry_on_failure_charges cfg pos c r w :
  rs_failed (get_rstate (snd (retry_on_failure cfg pos c r w)) pos) = rs_failed (get_rstate w pos) + 1.
Proof. rewrite retry_on_failure_ledger. reflexivity. Qed.

Lemma retry_on_failure_goes_on cfg pos c r w :
  pr_done (fst (retry_on_failure cfg pos c r w)) = false -> r_max_retries cfg <> -1 ->
  rs_failed (get_rstate w pos) + 1 <= r_max_retries cfg.
Proof.
  rewrite retry_on_failure_eq. cbv zeta. set (ab := is_abortable _ _).
  destruct (negb (r_max_retries cfg =? -1) && _ || _) eqn:Ex.
  - (* exceeded: done in every case *) destruct ab, (r_return_last cfg); discriminate.
  - (* not exceeded: by Ex the bound on the retries, as maxRetries <> -1, is not passed *)
    intros _. apply orb_false_iff in Ex. destruct Ex as [Ex _]. lia.
Qed.

(* C02: at most maxRetries + 1 invocations, failures already charged counted *)
Lemma retry_invocations cfg pos (inner : layer) :
  (forall c w, get_rstate (snd (inner c w)) pos = get_rstate w pos) -> 0 <= r_max_retries cfg ->
  forall fuel c w, rs_failed (get_rstate w pos) <= r_max_retries cfg ->
  Z.of_nat (snd (retry_loop fuel cfg pos inner c w)) <= r_max_retries cfg - rs_failed (get_rstate w pos) + 1.
Proof.
  intros Hframe Hmax. induction fuel as [|fuel IH]; intros c w Hf; cbn [retry_loop]; [cbn; lia|].
  (* the ledger after the inner layer is the one before it; every exit below has counted 1, which Hf allows *)
  rewrite <- (Hframe c w) in *. destruct (inner c w) as [r w1]. cbn [snd] in *.
  destruct (is_canceled w1 c); [cbn; lia|]. destruct (rs_exceeded _); [cbn; lia|].
  destruct (is_failure (r_fpol cfg) (pr_out r)); [|cbn; lia].
  pose proof (retry_on_failure_goes_on cfg pos c (with_failure r) w1) as H.
  pose proof (retry_on_failure_charges cfg pos c (with_failure r) w1) as Hch.
  destruct (retry_on_failure cfg pos c (with_failure r) w1) as [r2 w2]. cbn [fst snd] in H, Hch.
  destruct (pr_done r2); [cbn; lia|]. specialize (H eq_refl ltac:(lia)).   (* goes on: failed + 1 <= maxRetries *)
  destruct (is_canceled w2 c); [cbn; lia|].
  match goal with |- context [wait ?ww ?d ?i] => assert (Hw : w_retry (snd (wait ww d i)) = w_retry ww) by (apply (wait_same w_retry); reflexivity);
    destruct (wait ww d i) as [ii w5] end.
  cbn [snd] in Hw. destruct (is_canceled w5 c); [cbn; lia|].
  (* the next attempt starts on the ledger the verdict left (Hw fits up to computation: between w2 and the wait, and between
     w5 and w9, [w_retry] is not written), and that ledger has one failure more (Hch) *)
  match goal with |- context [retry_loop fuel cfg pos inner c ?w9] =>
    specialize (IH c w9); rewrite (get_rstate_ext w2 w9 pos Hw) in IH;
    destruct (retry_loop fuel cfg pos inner c w9) as [[rr ww] n] end.
  cbn [snd] in *. lia.
Qed.

Theorem retry_stops_on_success cfg pos (inner : layer) fuel c w :
  let r := fst (inner c w) in let w1 := snd (inner c w) in
  is_canceled w1 c = None -> rs_exceeded (get_rstate w1 pos) = false ->
  is_failure (r_fpol cfg) (pr_out r) = false ->
  retry_loop (S fuel) cfg pos inner c w =
    (with_done r true true, ev_with_result w1 c KPolSuccess pos (with_done r true true), 1%nat).
Proof.
  cbv zeta. cbn [retry_loop]. destruct (inner c w) as [r w1]. cbn [fst snd]. intros Hc He Hf.
  rewrite Hc, He, Hf. reflexivity.
Qed.

(* a retry policy that gives up on a failed attempt (budget exceeded, abort) returns the failure as it made it -- unless
   the execution is cancelled by then: a cancellation that arrived after the loop's look at it, while the failure was
   handled (a slow failure listener), is what it reports (the fix: commit for finding F17) *)
Lemma retry_gives_up cfg pos (inner : layer) fuel c w :
  let r := fst (inner c w) in let w1 := snd (inner c w) in
  let r2 := fst (retry_on_failure cfg pos c (with_failure r) w1) in
  let w2 := snd (retry_on_failure cfg pos c (with_failure r) w1) in
  is_canceled w1 c = None -> rs_exceeded (get_rstate w1 pos) = false ->
  is_failure (r_fpol cfg) (pr_out r) = true -> pr_done r2 = true ->
  retry_loop (S fuel) cfg pos inner c w = (match is_canceled w2 c with Some cr => cr | None => r2 end, w2, 1%nat).
Proof.
  cbv zeta. cbn [retry_loop]. destruct (inner c w) as [r w1]. cbn [fst snd]. intros Hc He Hf Hd.
  rewrite Hc, He, Hf.
  pose proof (retry_on_failure_not_success cfg pos c (with_failure r) w1) as Hs.
  destruct (retry_on_failure cfg pos c (with_failure r) w1) as [r2 w2]. cbn [fst snd] in *.
  rewrite Hd, Hs. reflexivity.
Qed.

Theorem retry_stops_on_abort cfg pos (inner : layer) fuel c w :
  let r := fst (inner c w) in let w1 := snd (inner c w) in
  is_canceled w1 c = None -> rs_exceeded (get_rstate w1 pos) = false ->
  is_failure (r_fpol cfg) (pr_out r) = true -> is_abortable (r_abort cfg) (pr_out r) = true ->
  snd (retry_loop (S fuel) cfg pos inner c w) = 1%nat.
Proof.
  cbv zeta. intros Hc He Hf Ha. rewrite (retry_gives_up cfg pos inner fuel c w Hc He Hf); [reflexivity|].
  (* the last conjunct: an abort ends the policy's run *)
  apply (retry_on_failure_rstate cfg pos c (with_failure (fst (inner c w))) (snd (inner c w))), Ha.
Qed.

Theorem retry_gives_up_returns_failure cfg pos (inner : layer) fuel c w :
  let r := fst (inner c w) in let w1 := snd (inner c w) in
  let r2 := fst (retry_on_failure cfg pos c (with_failure r) w1) in
  let w2 := snd (retry_on_failure cfg pos c (with_failure r) w1) in
  is_canceled w1 c = None -> rs_exceeded (get_rstate w1 pos) = false ->
  is_failure (r_fpol cfg) (pr_out r) = true -> pr_done r2 = true -> is_canceled w2 c = None ->
  retry_loop (S fuel) cfg pos inner c w = (r2, w2, 1%nat).
Proof. cbv zeta. intros Hc He Hf Hd Hc2. rewrite (retry_gives_up cfg pos inner fuel c w Hc He Hf Hd), Hc2. reflexivity. Qed.

Lemma fired_upd w s f q e s' : (forall sc, sc_fired (f sc) = sc_fired sc) ->
  sc_fired (get_scope (set_scopes w (upd s f (w_scopes w)) q e) s') = sc_fired (get_scope w s').
Proof. intros H. apply (nth_upd_proj sc_fired), H. Qed.

(* C07; the inner result is re-flagged by the Timeout's failure test (only ErrExceeded is a failure for it) *)
Theorem timeout_layer_outcome pos limit (inner : layer) c w :
  let s := length (w_scopes w) in
  let res := timeout_layer pos limit inner c w in
  (sc_fired (get_scope (snd res) s) = true /\ fst res = with_failure (failure_result ETimeout))
  \/ (sc_fired (get_scope (snd res) s) = false /\
      exists r, pr_out (fst res) = pr_out r /\
        (fst res = with_failure r \/ fst res = with_done r true true)).
Proof.
  cbv zeta. unfold timeout_layer.
  match goal with |- context [inner ?c' ?w2] => destruct (inner c' w2) as [r w3] end.
  cbn [fst snd].
  set (s := length (w_scopes w)). rewrite !fired_upd by reflexivity.
  destruct (sc_fired (get_scope w3 s)) eqn:E.
  - left. split; [reflexivity|]. cbn. reflexivity.
  - right. split; [reflexivity|]. exists r.
    destruct (match pr_err r with Some e => errors_is e ETimeout | None => false end); split; auto.
Qed.

(* C07: the world in which the inner layer starts: a new scope with deadline entry instant + limit *)
Definition timeout_entry_world (pos : nat) (limit : Z) (c : nat) (w : world) : world :=
  let cp := get_copy w c in
  let w1 := set_scopes w (w_scopes w ++ [ {| sc_deadline := Some (w_now w + limit); sc_fired := false; sc_done := None;
                                              sc_copy := length (w_copies w); sc_pos := pos |} ]) (w_seq w) (w_ext w) in
  set_copies w1 (w_copies w1 ++ [ {| cp_chain := length (w_scopes w) :: cp_chain cp; cp_last := cp_last cp; cp_start := cp_start cp |} ]).

Theorem timeout_deadline_is_entry_plus_limit pos limit (inner : layer) c w :
  sc_deadline (get_scope (timeout_entry_world pos limit c w) (length (w_scopes w))) = Some (w_now w + limit)
  /\ snd (timeout_layer pos limit inner c w) =
      let w3 := snd (inner (length (w_copies w)) (timeout_entry_world pos limit c w)) in
      set_scopes w3 (upd (length (w_scopes w)) (fun sc => {| sc_deadline := None; sc_fired := sc_fired sc; sc_done := sc_done sc;
                                              sc_copy := sc_copy sc; sc_pos := sc_pos sc |}) (w_scopes w3)) (w_seq w3) (w_ext w3).
Proof.
  split.
  - unfold timeout_entry_world, get_scope. cbn [w_scopes set_copies set_scopes]. rewrite app_nth2 by lia.
    rewrite Nat.sub_diag. reflexivity.
  - unfold timeout_layer, timeout_entry_world. cbn [w_copies set_scopes]. destruct (inner _ _). reflexivity.
Qed.

(* C08, C15: a cancelled execution reports the result stored by the canceller (a Timeout stores ErrExceeded), else the
   context's own error *)
Theorem cancel_result_is_cause w c cr : is_canceled w c = Some cr ->
  match w_cell w with
  | Some r => cr = r
  | None => pr_err cr = copy_err w c /\ pr_done cr = true
  end.
Proof.
  unfold is_canceled. destruct (copy_err w c) as [e|]; [|discriminate]. intros H. injection H as <-.
  destruct (w_cell w); [reflexivity|]. cbn. auto.
Qed.

(* C08: the retry loop returns the cancellation result as soon as the inner layer comes back cancelled: no PostExecute,
   no delay, no further attempt *)
Theorem retry_returns_cancel_result cfg pos (inner : layer) fuel c w cr :
  is_canceled (snd (inner c w)) c = Some cr ->
  retry_loop (S fuel) cfg pos inner c w = (cr, snd (inner c w), 1%nat).
Proof. cbn [retry_loop]. destruct (inner c w) as [r w1]. cbn [snd]. intros ->. reflexivity. Qed.

(* C08: every interruptible wait (retry delay, limiter or bulkhead wait, cooperative function) ends at once when its
   execution is already cancelled *)
Theorem wait_interrupted_immediately w d c e : copy_err w c = Some e -> wait w d (Some c) = (true, w).
Proof. intros H. unfold wait. destruct (wait_fuel w); cbn [advance]; rewrite H; reflexivity. Qed.

(* C08: a limiter wait interrupted by the cancellation does not run what it wraps *)
Theorem limiter_wait_interrupted pos inst mw (inner inner' : layer) c w :
  let '(cfg, base, s) := nth inst (w_limiters w) (Smooth 1, 0, SSmooth 0) in
  let '(wt, s') := lim_acquire cfg s (w_now w - base) 1 mw in
  let w1 := set_insts w (w_breakers w) (upd inst (fun p => (fst p, s')) (w_limiters w)) (w_bulkheads w) (w_caches w) in
  wt <> -1 -> fst (wait w1 wt (Some c)) = true ->
  limiter_layer pos inst mw inner c w = limiter_layer pos inst mw inner' c w.
Proof.
  unfold limiter_layer, limiter_layer_gen. destruct (nth inst (w_limiters w) _) as [[cfg base] s].
  destruct (lim_acquire cfg s (w_now w - base) 1 mw) as [wt s']. intros Hne.
  destruct (wt =? -1) eqn:E; [lia|]. destruct (wait _ wt (Some c)) as [i w2]. cbn [fst]. intros ->. reflexivity.
Qed.

(* C16: OnRateLimitExceeded exactly when the limiter refuses *)
Theorem limiter_event_only_on_refusal pos inst mw (inner : layer) c w :
  let '(cfg, base, s) := nth inst (w_limiters w) (Smooth 1, 0, SSmooth 0) in
  let '(wt, s') := lim_acquire cfg s (w_now w - base) 1 mw in
  let w1 := set_insts w (w_breakers w) (upd inst (fun p => (fst p, s')) (w_limiters w)) (w_bulkheads w) (w_caches w) in
  (wt = -1 -> limiter_layer pos inst mw inner c w = (failure_result ERate, stamp (emit w1 KRateExceeded pos (snapshot w1 c) 0) c))
  /\ (wt <> -1 ->
      snd (limiter_layer pos inst mw inner c w) =
      if fst (wait w1 wt (Some c)) then snd (wait w1 wt (Some c)) else snd (inner c (snd (wait w1 wt (Some c))))).
Proof.
  unfold limiter_layer, limiter_layer_gen. destruct (nth inst (w_limiters w) _) as [[cfg base] s].
  destruct (lim_acquire cfg s (w_now w - base) 1 mw) as [wt s']. split; intros H.
  - subst wt. reflexivity.
  - destruct (wt =? -1) eqn:E; [lia|]. destruct (wait _ wt (Some c)) as [i w2]. cbn [fst snd]. destruct i; reflexivity.
Qed.

Definition held_of (w : world) (inst : nat) : Z := snd (nth inst (w_bulkheads w) (0, 0)).

(* C06: the permit count is left as found, if the inner layer leaves it so *)
Theorem bulkhead_layer_balanced pos inst mw (inner : layer) c w :
  (inst < length (w_bulkheads w))%nat ->
  (forall c' w', (inst < length (w_bulkheads w'))%nat ->
     held_of (snd (inner c' w')) inst = held_of w' inst /\ (inst < length (w_bulkheads (snd (inner c' w'))))%nat) ->
  held_of (snd (bulkhead_layer pos inst mw inner c w)) inst = held_of w inst.
Proof.
  intros Hi Hin. unfold bulkhead_layer, held_of.
  destruct (nth inst (w_bulkheads w) (0, 0)) as [cap held] eqn:En. cbn [snd].
  destruct (copy_err w c); [cbn [snd]; rewrite En; reflexivity|].
  destruct (held <? cap).
  - (* admitted: held + 1 on entry, the inner layer balanced (Hh), held2 - 1 on exit *)
    set (w1 := set_insts w _ _ _ _).
    assert (H1 : (inst < length (w_bulkheads w1))%nat) by (subst w1; cbn [w_bulkheads set_insts]; rewrite upd_length; exact Hi).
    destruct (Hin c w1 H1) as [Hh Hl]. unfold held_of in Hh.
    destruct (inner c w1) as [r w2]. cbn [snd] in *.
    destruct (nth inst (w_bulkheads w2) (0, 0)) as [cap2 held2] eqn:E2. cbn [snd w_bulkheads set_insts].
    rewrite nth_upd_same by exact Hl. rewrite E2. cbn [snd] in *.
    subst w1. cbn [w_bulkheads set_insts] in Hh. rewrite nth_upd_same in Hh by exact Hi. rewrite En in Hh. cbn [snd] in Hh. lia.
  - assert (Hfull : forall w0, w_bulkheads (stamp (emit w0 KFull pos (snapshot w0 c) 0) c) = w_bulkheads w0)
      by (intros w0; rewrite (stamp_same w_bulkheads) by reflexivity; reflexivity).
    destruct (mw =? 0); [cbn [snd]; rewrite Hfull, En; reflexivity|].
    assert (Hw : w_bulkheads (snd (wait w mw (Some c))) = w_bulkheads w) by (apply (wait_same w_bulkheads); reflexivity).
    destruct (wait w mw (Some c)) as [i w1]. cbn [snd] in Hw.
    destruct i; cbn [snd]; rewrite ?Hfull, Hw, En; reflexivity.
Qed.
