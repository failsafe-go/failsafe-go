(* C14: consistent locking orders the accesses to a location.  At its access t1 holds the guard and at its own t2 must: walking
   the trace between the two with the guard's holder, one meets t1's release and, after it, an acquisition by t2. *)
From FS Require Import Model.Lockset.

Fixpoint has_acq_after (t2 : thread) (m : lock) (tr : list ev) : Prop :=
  match tr with
  | [] => False
  | Acq t m' :: tr' => (t = t2 /\ m' = m) \/ has_acq_after t2 m tr'
  | _ :: tr' => has_acq_after t2 m tr'
  end.

(* t1 releases m and, later, t2 acquires it: the unlock/lock pair the Go memory model turns into a happens-before edge *)
Fixpoint rel_then_acq (t1 t2 : thread) (m : lock) (tr : list ev) : Prop :=
  match tr with
  | [] => False
  | Rel t m' :: tr' => (t = t1 /\ m' = m /\ has_acq_after t2 m tr') \/ rel_then_acq t1 t2 m tr'
  | _ :: tr' => rel_then_acq t1 t2 m tr'
  end.

Lemma ok_from_suffix g : forall pre h suffix, ok_from g h (pre ++ suffix) -> ok_from g (run_holder h pre) suffix.
Proof.
  induction pre as [|e pre IH]; intros h suffix H; [exact H|].
  destruct e; cbn [app ok_from run_holder] in *; apply IH, H.
Qed.

Lemma holder_acquired t2 m : forall tr h, h m <> Some t2 -> run_holder h tr m = Some t2 -> has_acq_after t2 m tr.
Proof.
  induction tr as [|e tr IH]; intros h Hh Hr; [contradiction|].
  destruct e as [t m'|t m'|t y wy]; cbn [run_holder has_acq_after] in *.
  - destruct (Nat.eq_dec t t2) as [Et|Ht], (Nat.eq_dec m' m) as [Em|Hm]; [left; auto|right..];
      refine (IH _ _ Hr); cbn; destruct (Nat.eqb_spec m m'); congruence.
  - refine (IH _ _ Hr). cbn. destruct (m =? m')%nat; [discriminate|exact Hh].
  - exact (IH h Hh Hr).
Qed.

Lemma held_then_access g : forall tr h t1 t2 x w rest,
  h (g x) = Some t1 -> t1 <> t2 -> ok_from g h (tr ++ Acc t2 x w :: rest) -> rel_then_acq t1 t2 (g x) tr.
Proof.
  induction tr as [|e tr IH]; intros h t1 t2 x w rest Hh Hne Hok.
  - cbn [app ok_from] in Hok. destruct Hok as [H _]. congruence.
  - destruct e as [t m|t m|t y wy]; cbn [app ok_from] in Hok; destruct Hok as [Ha Hb]; cbn [rel_then_acq].
    + refine (IH _ t1 t2 x w rest _ Hne Hb). cbn. destruct (Nat.eqb_spec (g x) m); congruence.
    + destruct (Nat.eq_dec m (g x)) as [->|Hm].
      * left. repeat split; [congruence|]. apply ok_from_suffix in Hb as [Hb _].
        refine (holder_acquired _ _ _ _ _ Hb). cbn. rewrite Nat.eqb_refl. discriminate.
      * right. refine (IH _ t1 t2 x w rest _ Hne Hb). cbn. destruct (Nat.eqb_spec (g x) m); congruence.
    + apply (IH h t1 t2 x w rest); assumption.
Qed.

Theorem disciplined_accesses_are_ordered g pre t1 x w1 mid t2 w2 rest :
  disciplined_trace g (pre ++ Acc t1 x w1 :: mid ++ Acc t2 x w2 :: rest) -> t1 <> t2 ->
  rel_then_acq t1 t2 (g x) mid.
Proof.
  intros H Hne. apply ok_from_suffix in H. cbn [ok_from] in H. destruct H as [Hh Hok].
  eapply held_then_access; eauto.
Qed.
