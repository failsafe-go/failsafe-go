(* The hedge layer of Model/Exec.v.  [hloop] contains the graph of the hedge loop ([hedge_loop_hloop]): every statement
   about the loop, here and in ExecHedgeWinner, ExecHedgeLosers and ExecSteps, is an induction on it.  Here: a hedged run
   starts at most maxHedges hedges, and hedge k not before k delays after the run began.  All statements are for
   arbitrary worlds: any enclosing stack, script, pending timeouts and cancellations, attempts of earlier runs still
   in the background. *)
From FS Require Import Model.Exec Proofs.ExecProofs.

(* [hedge_start] in three stages: the lets of Model/Exec.v, cut where the step alphabet of ExecSteps cuts ([S_push];
   [S_hedge]; [S_script], [S_semit], [S_bg_new]; then [refresh_bg]).  Proofs go through the stages because [hedge_start]
   itself, unfolded or normalised, repeats the world many times over and is slow to check.  The bodies keep the lets of
   the model, so that [hedge_start_stages] holds by unfolding without reducing: left to itself the conversion test looks
   for the difference in the wrong places for minutes. *)
Definition push_attempt (pos c : nat) (w : world) : world :=
  let w1 := set_scopes w (w_scopes w ++ [ {| sc_deadline := None; sc_fired := false; sc_done := None; sc_copy := length (w_copies w); sc_pos := pos |} ])
                       (w_seq w) (w_ext w) in
  set_copies w1 (w_copies w1 ++ [ {| cp_chain := length (w_scopes w) :: cp_chain (get_copy w c); cp_last := cp_last (get_copy w c);
                                     cp_start := cp_start (get_copy w c) |} ]).

Definition count_hedge (pos c' : nat) (w : world) : world :=
  let w' := set_hedge (set_counters w (w_attempts w + 1) (w_retries w) (w_executions w)) (w_hedges w + 1) (w_bg w) (w_hs w) in
  stamp (emit w' KHedge pos (snapshot w' c') 0) c'.

Definition launch_attempt (total k c' : nat) (w : world) : world :=
  let st := next_step w in
  let w4 := set_script w (rest_script w) in
  let w5 := stamp (emit w4 KFnStart total (snapshot w4 c') (match k with O => 0 | S _ => 1 end)) c' in
  let b := {| bg_grp := hs_grp (w_hs w5); bg_idx := k; bg_copy := c'; bg_pos := total; bg_finish := w_now w5 + fs_dur st;
              bg_out := fs_out st; bg_coop := match fs_coop st with Some o => Some (o, fs_lag st) | None => None end |} in
  set_hedge w5 (w_hedges w5) (b :: w_bg w5) (w_hs w5).

Lemma hedge_start_stages pos total c k w :
  hedge_start pos total c k w =
  refresh_bg (launch_attempt total k (length (w_copies w))
                (match k with O => push_attempt pos c w | S _ => count_hedge pos (length (w_copies w)) (push_attempt pos c w) end)).
Proof. cbv beta delta [hedge_start push_attempt launch_attempt count_hedge]. reflexivity. Qed.

(* [set_hedge] is always handed back the state of the run; [count_hedge] hands back the background attempts as well,
   [launch_attempt] the hedge counter *)
Lemma count_hedge_same {X} (f : world -> X) :
  (forall w t, f (set_trace w t) = f w) -> (forall w a r x, f (set_counters w a r x) = f w) ->
  (forall w h, f (set_hedge w h (w_bg w) (w_hs w)) = f w) -> forall pos c' w, f (count_hedge pos c' w) = f w.
Proof.
  intros Ht Hc Hh pos c' w. unfold count_hedge, emit. cbv zeta. rewrite (stamp_same f), Ht by exact Ht.
  (* Hh at the world with the new counters: its [w_bg], [w_hs] compute to those of w *)
  etransitivity; [exact (Hh (set_counters _ _ _ _) _)|apply Hc].
Qed.

Lemma launch_attempt_same {X} (f : world -> X) :
  (forall w t, f (set_trace w t) = f w) -> (forall w s, f (set_script w s) = f w) ->
  (forall w bg, f (set_hedge w (w_hedges w) bg (w_hs w)) = f w) -> forall total k c' w, f (launch_attempt total k c' w) = f w.
Proof. intros Ht Hs Hh total k c' w. unfold launch_attempt, emit. cbv zeta. rewrite Hh, (stamp_same f), Ht by exact Ht. apply Hs. Qed.

Lemma hedge_start_same {X} (f : world -> X) :
  (forall w t, f (set_trace w t) = f w) -> (forall w s, f (set_script w s) = f w) ->
  (forall w a r x, f (set_counters w a r x) = f w) -> (forall w h bg, f (set_hedge w h bg (w_hs w)) = f w) ->
  (forall w, f (set_oof w) = f w) -> forall pos total c k w, f (hedge_start pos total c k w) = f (push_attempt pos c w).
Proof.
  intros Ht Hs Hc Hh Ho pos total c k w. rewrite hedge_start_stages, (refresh_bg_same f), (launch_attempt_same f) by auto.
  destruct k; [reflexivity|apply count_hedge_same; auto].
Qed.

Lemma hedge_start_now pos total c k w : w_now (hedge_start pos total c k w) = w_now w.
Proof. apply (hedge_start_same w_now); reflexivity. Qed.

Lemma hedge_start_hs pos total c k w : w_hs (hedge_start pos total c k w) = w_hs w.
Proof. apply (hedge_start_same w_hs); reflexivity. Qed.

Lemma hedge_start_hedges pos total c k w :
  w_hedges (hedge_start pos total c k w) = w_hedges w + (match k with O => 0 | S _ => 1 end).
Proof.
  rewrite hedge_start_stages, (refresh_bg_same w_hedges), (launch_attempt_same w_hedges) by reflexivity. destruct k; [cbn; lia|].
  unfold count_hedge. cbv zeta. rewrite (stamp_same w_hedges) by reflexivity. reflexivity.
Qed.

Section Run.
Variables (cfg : hedge_cfg) (pos total c : nat).

(* One turn: attempt k is started and the run waits (for an accepted result, its own cancellation or the hedge delay).
   A relation, so that the world after the turn is a variable in every proof: as a term it would be unfolded, through
   [advance], by any conversion test that meets it under two different setters. *)
Definition hedge_turn (k : nat) (w w7 : world) : Prop :=
  exists fuel t, w7 = snd (advance fuel (hedge_start pos total c k w) t (Some c) true).

Definition started_next (started : list (nat * nat)) (w : world) : list (nat * nat) :=
  started ++ [(length (w_copies w), length (w_scopes w))].

(* [hloop k started w r w' ts]: the loop entered with k, started, w may return (r, w', ts).  [HR_spent] asks nothing of
   its turn (not even that no hedge is left): the world it returns is flagged schedule-dependent, and every statement
   about the loop excepts such worlds or holds of them anyway.  [HR_more] carries what a turn that ends in neither of
   the ways before it has done: it waited out the hedge delay. *)
Inductive hloop : nat -> list (nat * nat) -> world -> presult -> world -> list Z -> Prop :=
  | HR_fuel k st w : hloop k st w (failure_result EOther) (set_oof w) []
  | HR_cancelled k st w w7 cr : hedge_turn k w w7 -> is_canceled w7 c = Some cr -> hloop k st w cr w7 [w_now w]
  | HR_accepted k st w w7 idx out : hedge_turn k w w7 -> is_canceled w7 c = None -> hs_acc (w_hs w7) = Some (idx, out) ->
      hloop k st w (all_true out) (refresh_bg (cancel_others (clear_acc w7) (started_next st w) 0 idx)) [w_now w]
  | HR_spent k st w w7 : hedge_turn k w w7 -> hloop k st w (failure_result EOther) (set_oof w7) [w_now w]
  | HR_more k st w w7 r w' ts :
      hedge_turn k w w7 -> (k < hg_max cfg)%nat -> is_canceled w7 c = None -> hs_acc (w_hs w7) = None ->
      w_now w + hg_delay cfg <= w_now w7 ->
      hloop (S k) (started_next st w) w7 r w' ts -> hloop k st w r w' (w_now w :: ts).

Lemma hedge_loop_hloop : forall fuel k st w,
  hloop k st w (fst (fst (hedge_loop fuel cfg pos total c k st w))) (snd (fst (hedge_loop fuel cfg pos total c k st w)))
        (snd (hedge_loop fuel cfg pos total c k st w)).
Proof.
  induction fuel as [|fuel IH]; intros k st w; cbn [hedge_loop]; [constructor|].
  match goal with |- context [advance ?f ?w6 ?t ?i ?a] =>
    pose proof (advance_exit f w6 t i a) as Hx; assert (Ht : hedge_turn k w (snd (advance f w6 t i a))) by (exists f, t; reflexivity);
    destruct (advance f w6 t i a) as [ii w7] end.
  cbn [snd] in Ht. rewrite hedge_start_now in *. fold (started_next st w).
  destruct (is_canceled w7 c) as [cr|] eqn:Ec; [apply HR_cancelled; assumption|].
  destruct (hs_acc (w_hs w7)) as [[idx out]|] eqn:Ea; [apply HR_accepted; assumption|].
  destruct (Nat.ltb k (hg_max cfg)) eqn:Hk; [|apply HR_spent, Ht].
  specialize (IH (S k) (started_next st w) w7).
  destruct (hedge_loop fuel cfg pos total c (S k) _ w7) as [[r w8] ts].
  apply (HR_more k st w w7 r w8 ts Ht (proj1 (Nat.ltb_lt _ _) Hk) Ec Ea); [|exact IH].
  (* the wait lasted (Hx, from [advance_exit]): it was neither cut short nor ended by a result *)
  destruct ii.
  - (* cut short: but the execution is not cancelled.  [is_canceled_none] and not [discriminate], which would evaluate
       [copy_err] of the world after the wait *)
    destruct Hx as (c0 & [= <-] & Hx). destruct (Hx (is_canceled_none _ _ Ec)).
  - destruct Hx as [[_ Hx]|Hx].
    + (* a result: [hs_acc (w_hs w7)] in Hx became None by the [destruct ... eqn:Ea] above *) destruct (Hx eq_refl).
    + apply Hx. reflexivity.
Qed.
End Run.

Definition run_entry (cfg : hedge_cfg) (w : world) : world :=
  set_hedge w (w_hedges w) (w_bg w)
    {| hs_grp := S (hs_grp (w_hs w)); hs_max := hg_max cfg; hs_cond := hg_cancel cfg; hs_count := 0; hs_sent := false; hs_acc := None |}.

Lemma hedge_layer_hloop pos total cfg c w : exists ts,
  hloop cfg pos total c 0 [] (run_entry cfg w) (fst (hedge_layer pos total cfg c w)) (snd (hedge_layer pos total cfg c w)) ts.
Proof. eexists. apply hedge_loop_hloop. Qed.

(* what the return of attempt b makes of the state of the run in progress (hedgeexecutor.go:46-53) *)
Definition hs_return (hs : hstate) (b : bgrun) : hstate :=
  let cnt := S (hs_count hs) in
  let take := (Nat.eqb cnt (S (hs_max hs)) || is_abortable (hs_cond hs) (bg_out b)) && negb (hs_sent hs) in
  {| hs_grp := hs_grp hs; hs_max := hs_max hs; hs_cond := hs_cond hs; hs_count := cnt; hs_sent := hs_sent hs || take;
     hs_acc := if take then Some (bg_idx b, bg_out b) else hs_acc hs |}.

Lemma finish_bg_hs w b : w_hs (finish_bg w b) = if Nat.eqb (bg_grp b) (hs_grp (w_hs w)) then hs_return (w_hs w) b else w_hs w.
Proof.
  unfold finish_bg. cbv zeta. rewrite (stamp_same w_hs) by reflexivity. cbn [w_hs emit set_trace set_counters set_hedge].
  destruct (Nat.eqb _ _); [reflexivity|]. rewrite (stamp_same w_hs) by reflexivity. reflexivity.
Qed.

Lemma finish_bg_bg w b : w_bg (finish_bg w b) = bg_remove b (w_bg w).
Proof.
  (* the world without b, as a variable: the rest of [finish_bg] leaves its background attempts alone *)
  unfold finish_bg. cbv zeta. set (w1 := set_hedge w _ _ _). change (bg_remove b (w_bg w)) with (w_bg w1). clearbody w1.
  destruct (Nat.eqb _ _); cbn [w_bg set_hedge]; rewrite (stamp_same w_bg) by reflexivity; reflexivity.
Qed.

Lemma hedge_turn_hedges pos total c k w w7 : hedge_turn pos total c k w w7 ->
  w_hedges w7 = w_hedges w + (match k with O => 0 | S _ => 1 end).
Proof. intros (f & t & ->). rewrite (advance_same w_hedges) by reflexivity. apply hedge_start_hedges. Qed.

Theorem hloop_attempts_bound cfg pos total c k st w r w' ts : hloop cfg pos total c k st w r w' ts ->
  (k <= hg_max cfg)%nat -> (length ts <= S (hg_max cfg) - k)%nat.
Proof. induction 1; cbn [length]; lia. Qed.

Theorem hloop_hedges_exact cfg pos total c k st w r w' ts : hloop cfg pos total c k st w r w' ts ->
  w_hedges w' = w_hedges w + Z.of_nat (length ts) - (match k, ts with O, _ :: _ => 1 | _, _ => 0 end).
Proof.
  (* Ht: a turn counts one hedge unless it started attempt 0 *)
  induction 1 as [k st w|k st w w7 cr Ht _|k st w w7 idx out Ht _ _|k st w w7 Ht|k st w w7 r w' ts Ht _ _ _ _ _ IH];
    try apply hedge_turn_hedges in Ht.
  (* HR_accepted *)
  3: rewrite (refresh_bg_same w_hedges), (cancel_others_same w_hedges) by reflexivity.
  (* arithmetic on Ht and IH (which is for S k); k: attempt 0 or not *)
  all: cbn [w_hedges set_oof clear_acc set_hedge length]; destruct k; lia.
Qed.

(* C09: at most maxHedges hedges per hedged run *)
Theorem hedge_layer_hedges_bound pos total cfg c w :
  w_hedges (snd (hedge_layer pos total cfg c w)) <= w_hedges w + Z.of_nat (hg_max cfg).
Proof.
  destruct (hedge_layer_hloop pos total cfg c w) as [ts H].
  pose proof (hloop_hedges_exact _ _ _ _ _ _ _ _ _ _ H) as E.
  apply hloop_attempts_bound in H; [|lia].
  change (w_hedges (run_entry cfg w)) with (w_hedges w) in E. destruct ts; cbn [length] in *; lia.
Qed.

(* [ts]: the start instants of the attempts of one hedged run, ghost result of the loop *)
Definition spaced (base d : Z) (ts : list Z) : Prop := forall i t, nth_error ts i = Some t -> base + Z.of_nat i * d <= t.

Lemma spaced_one base d : 0 <= d -> spaced base d [base].
Proof. intros Hd [|[|i]] t H; cbn in H; try discriminate. inversion H. lia. Qed.

Lemma spaced_cons base base' d ts : 0 <= d -> base + d <= base' -> spaced base' d ts -> spaced base d (base :: ts).
Proof.
  intros Hd Hb Hs [|i] t H; cbn [nth_error] in H.
  - inversion H. lia.
  - specialize (Hs i t H). lia.
Qed.

Theorem hloop_spacing cfg pos total c k st w r w' ts : 0 <= hg_delay cfg ->
  hloop cfg pos total c k st w r w' ts -> spaced (w_now w) (hg_delay cfg) ts.
Proof.
  intros Hd. induction 1 as [| | | |k st w w7 r w' ts _ _ _ _ Hw _ IH].
  2-4: apply spaced_one, Hd.   (* HR_cancelled, HR_accepted, HR_spent *)
  - (* HR_fuel: no start *) intros [|i] t E; discriminate E.
  - (* HR_more: the wait lasted the delay *) exact (spaced_cons _ _ _ _ Hd Hw IH).
Qed.

(* C09: hedge k starts no earlier than k hedge delays after the run began *)
Theorem hedge_loop_spacing cfg pos total : 0 <= hg_delay cfg ->
  forall fuel c k started w, spaced (w_now w) (hg_delay cfg) (snd (hedge_loop fuel cfg pos total c k started w)).
Proof. intros Hd fuel c k st w. exact (hloop_spacing _ _ _ _ _ _ _ _ _ _ Hd (hedge_loop_hloop cfg pos total c fuel k st w)). Qed.

Theorem hedge_loop_attempts_bound cfg pos total : forall fuel c k started w,
  (k <= hg_max cfg)%nat ->
  (length (snd (hedge_loop fuel cfg pos total c k started w)) <= S (hg_max cfg) - k)%nat.
Proof. intros fuel c k st w. exact (hloop_attempts_bound _ _ _ _ _ _ _ _ _ _ (hedge_loop_hloop cfg pos total c fuel k st w)). Qed.
