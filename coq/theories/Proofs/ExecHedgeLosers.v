(* C09 inside a stack: when a hedged run hands on an accepted result, every other attempt it started has been cancelled
   and the winning attempt has not.
   The argument: a copy is live exactly when no scope of its chain is done; if n0 scopes and m0 copies existed when the
   run began, its attempt j runs on copy m0 + j, whose chain is its own scope n0 + j before the chain of the run's copy;
   while the run waits only scopes below n0 are touched; [cancel_others] touches exactly the scopes of the losers and
   leaves each loser's copy cancelled. *)
From FS Require Import Model.Exec Proofs.ExecProofs Proofs.ExecHedgeProofs.

(* one step of ctx.Err() over a chain of scopes: the earliest cancellation so far *)
Definition pick (w : world) (acc : option (Z * err)) (s : nat) : option (Z * err) :=
  match sc_done (get_scope w s), acc with
  | Some (q, e), Some (q', _) => if q <? q' then Some (q, e) else acc
  | Some (q, e), None => Some (q, e)
  | None, _ => acc
  end.

Lemma ctx_err_fold w chain : ctx_err w chain = match fold_left (pick w) chain None with Some (_, e) => Some e | None => None end.
Proof. reflexivity. Qed.

Lemma fold_pick_some w : forall chain acc, acc <> None -> fold_left (pick w) chain acc <> None.
Proof.
  induction chain as [|s chain IH]; intros acc H; cbn [fold_left]; [exact H|].
  apply IH. unfold pick. destruct (sc_done (get_scope w s)) as [[q e]|]; [|exact H].
  destruct acc as [[q' e']|]; [destruct (q <? q'); discriminate|discriminate].
Qed.

Lemma copy_err_none_iff w c : copy_err w c = None <-> forall s, In s (cp_chain (get_copy w c)) -> sc_done (get_scope w s) = None.
Proof.
  unfold copy_err. rewrite ctx_err_fold. induction (cp_chain (get_copy w c)) as [|s chain IH]; cbn [fold_left].
  { split; [intros _ s []|reflexivity]. }
  unfold pick at 2. destruct (sc_done (get_scope w s)) as [[q e]|] eqn:E.   (* the fold's first step: Some iff s is done *)
  - (* s is done: the fold stays Some *)
    pose proof (fold_pick_some w chain (Some (q, e)) ltac:(discriminate)) as F. split.
    + intros H. destruct (fold_left (pick w) chain (Some (q, e))) as [[q' e']|]; [discriminate H|destruct (F eq_refl)].
    + intros H. rewrite (H s (or_introl eq_refl)) in E. discriminate E.
  - (* s is not done *) rewrite IH. split.
    + intros H s' [<-|Hin]; [exact E|exact (H s' Hin)].
    + intros H s' Hin. exact (H s' (or_intror Hin)).
Qed.

Record touches (T : nat -> Prop) (w w' : world) : Prop := {
  t_sc : length (w_scopes w') = length (w_scopes w);
  t_cp : length (w_copies w') = length (w_copies w);
  t_chain : forall k, cp_chain (get_copy w' k) = cp_chain (get_copy w k);
  t_out : forall s, ~ T s -> get_scope w' s = get_scope w s;
  t_done : forall s, sc_done (get_scope w s) <> None -> sc_done (get_scope w' s) <> None }.

Lemma touches_same (T : nat -> Prop) w w' : w_scopes w' = w_scopes w -> w_copies w' = w_copies w -> touches T w w'.
Proof. intros E1 E2. constructor; unfold get_copy, get_scope; rewrite ?E1, ?E2; auto. Qed.

Lemma touches_trans (T : nat -> Prop) a b c : touches T a b -> touches T b c -> touches T a c.
Proof.
  intros [A1 A2 A3 A4 A5] [B1 B2 B3 B4 B5]. constructor; try congruence; [|auto].
  intros s Hs. rewrite B4, A4 by exact Hs. reflexivity.
Qed.

Lemma touches_upd (T : nat -> Prop) w s f q e : T s -> (forall sc, sc_done sc <> None -> sc_done (f sc) <> None) ->
  touches T w (set_scopes w (upd s f (w_scopes w)) q e).
Proof.
  intros Hs Hf. constructor; unfold get_scope; cbn [w_scopes w_copies set_scopes]; try reflexivity.
  - apply upd_length.
  - intros s' Hn. apply nth_upd_other. intros ->. exact (Hn Hs).
  - intros s'. apply (nth_upd_inv (fun sc => sc_done sc <> None)), Hf.
Qed.

Lemma touches_mark_done (T : nat -> Prop) w s e : T s -> touches T w (mark_done w s e).
Proof.
  intros Hs. unfold mark_done. destruct (sc_done _); [apply touches_same; reflexivity|].
  apply touches_upd; [exact Hs|]. cbn [sc_done]. discriminate.
Qed.

(* the last step of [fire_timeout] and [fire_ext]: Cancel has stored its result, the scope is marked *)
Lemma touches_cancel (T : nat -> Prop) w w1 c o s e : touches T w w1 -> T s -> touches T w (mark_done (set_copy_last w1 c o) s e).
Proof.
  intros K Hs. eapply touches_trans; [exact K|]. eapply touches_trans; [|apply touches_mark_done, Hs].
  constructor; cbn [w_scopes w_copies set_copy_last set_copies]; try reflexivity; [apply upd_length| |auto].
  intros k. unfold get_copy. cbn [w_copies set_copies]. apply (nth_upd_proj cp_chain). reflexivity.
Qed.

Lemma touches_fire_timeout (T : nat -> Prop) w s : T s -> touches T w (fire_timeout w s).
Proof.
  intros Hs. unfold fire_timeout. cbv zeta.
  (* w1: the timer of s cleared, [sc_done] kept; w2: the event logged *)
  set (w1 := set_scopes w (upd s _ (w_scopes w)) (w_seq w) (w_ext w)). set (w2 := emit w1 KTimeoutExceeded _ _ _).
  assert (K2 : touches T w w2)
    by (apply (touches_trans T w w1); [apply touches_upd; [exact Hs|intros sc H; exact H]|apply touches_same; reflexivity]).
  destruct (copy_err w2 _); [exact K2|].
  apply touches_cancel; [|exact Hs]. apply (touches_trans T w w2); [exact K2|apply touches_same; reflexivity].
Qed.

Lemma touches_fire_ext (T : nat -> Prop) w e : T 0%nat -> touches T w (fire_ext w e).
Proof.
  intros Hs. unfold fire_ext. cbv zeta. set (w0 := set_scopes w (w_scopes w) (w_seq w) None).
  assert (K0 : touches T w w0) by (apply touches_same; reflexivity).
  destruct e; try (eapply touches_trans; [exact K0|apply touches_mark_done, Hs]).
  destruct (copy_err w0 0%nat); [exact K0|]. apply touches_cancel; [|exact Hs].
  eapply touches_trans; [exact K0|apply touches_same; reflexivity].
Qed.

Lemma touches_cancel_copy (T : nat -> Prop) w cs : T (snd cs) -> touches T w (cancel_copy w cs).
Proof.
  intros Hs. unfold cancel_copy. destruct (copy_err w (fst cs)); [apply touches_same; reflexivity|].
  eapply touches_trans; [|apply touches_mark_done, Hs]. apply touches_same; reflexivity.
Qed.

Lemma cancel_others_touches (T : nat -> Prop) started : forall w i winner,
  (forall j cs, nth_error started j = Some cs -> (i + j)%nat <> winner -> T (snd cs)) -> touches T w (cancel_others w started i winner).
Proof.
  induction started as [|cs rest IH]; intros w i winner HT; cbn [cancel_others]; [apply touches_same; reflexivity|].
  apply touches_trans with (if Nat.eqb i winner then w else cancel_copy w cs).
  - destruct (Nat.eqb_spec i winner) as [_|Hne]; [apply touches_same; reflexivity|]. apply touches_cancel_copy, (HT 0%nat cs eq_refl). lia.
  - apply IH. intros j cs' Hj Hne. apply (HT (S j) cs' Hj). lia.
Qed.

Lemma touches_live (T : nat -> Prop) w w' k : touches T w w' -> (forall s, In s (cp_chain (get_copy w k)) -> ~ T s) -> copy_err w k = None -> copy_err w' k = None.
Proof.
  intros K Hout. rewrite !copy_err_none_iff, (t_chain _ _ _ K). intros H s Hin. rewrite (t_out _ _ _ K) by exact (Hout s Hin). exact (H s Hin).
Qed.

Lemma touches_dead (T : nat -> Prop) w w' k : touches T w w' -> copy_err w k <> None -> copy_err w' k <> None.
Proof.
  intros K H H'. apply H. rewrite copy_err_none_iff in *. rewrite (t_chain _ _ _ K) in H'. intros s Hin.
  destruct (sc_done (get_scope w s)) eqn:E; [|reflexivity]. destruct (t_done _ _ _ K s); [rewrite E; discriminate|exact (H' s Hin)].
Qed.

Lemma cancel_copy_dead w cs : (snd cs < length (w_scopes w))%nat -> In (snd cs) (cp_chain (get_copy w (fst cs))) ->
  copy_err (cancel_copy w cs) (fst cs) <> None.
Proof.
  intros Hlt Hin. unfold cancel_copy. destruct (copy_err w (fst cs)) eqn:Ec; [rewrite Ec; discriminate|].
  rewrite copy_err_none_iff. intros H. specialize (H (snd cs)). rewrite (mark_done_same (fun w => cp_chain (get_copy w _))) in H by reflexivity.
  specialize (H Hin). revert H. unfold mark_done. destruct (sc_done (get_scope (set_cell w None) (snd cs))) eqn:E; [rewrite E; discriminate|].
  unfold get_scope. cbn [w_scopes set_scopes set_cell]. rewrite nth_upd_same by exact Hlt. discriminate.
Qed.

Lemma cancel_others_dead started : forall w i winner j cs, nth_error started j = Some cs -> (i + j)%nat <> winner ->
  (snd cs < length (w_scopes w))%nat -> In (snd cs) (cp_chain (get_copy w (fst cs))) -> copy_err (cancel_others w started i winner) (fst cs) <> None.
Proof.
  induction started as [|cs0 rest IH]; intros w i winner j cs Hj Hne Hlt Hin; [destruct j; discriminate|]. cbn [cancel_others].
  destruct j as [|j]; cbn [nth_error] in Hj.
  - injection Hj as ->. rewrite Nat.add_0_r in Hne. apply Nat.eqb_neq in Hne. rewrite Hne.
    eapply touches_dead; [apply (cancel_others_touches (fun _ => True)); auto|apply cancel_copy_dead; assumption].
  - assert (K : touches (fun _ => True) w (if Nat.eqb i winner then w else cancel_copy w cs0))
      by (destruct (Nat.eqb i winner); [apply touches_same; reflexivity|apply touches_cancel_copy; exact I]).
    apply (IH _ (S i) winner j cs Hj); [lia|rewrite (t_sc _ _ _ K); exact Hlt|rewrite (t_chain _ _ _ K); exact Hin].
Qed.

Lemma nth_snoc_inv {A} (P : A -> Prop) (l : list A) x d s : P (nth s l d) -> P x -> P (nth s (l ++ [x]) d).
Proof.
  intros Hl Hx. destruct (Nat.lt_ge_cases s (length l)) as [Hlt|Hge]; [rewrite app_nth1 by exact Hlt; exact Hl|].
  rewrite nth_overflow in Hl by exact Hge. rewrite app_nth2 by exact Hge. destruct (s - length l)%nat as [|[|m]]; assumption.
Qed.

Section Run.
(* the run's own copy; the numbers of scopes and copies when the run began *)
Variables (c n0 m0 : nat).

Definition fresh_from (w : world) : Prop := forall s, (n0 <= s)%nat -> sc_deadline (get_scope w s) = None.

(* a pending deadline belongs to a scope below n0, and the caller's scope is scope 0 *)
Lemma advance_touches fuel w t intr acc : (1 <= n0)%nat -> fresh_from w -> touches (fun s => (s < n0)%nat) w (snd (advance fuel w t intr acc)).
Proof.
  intros Hn0. revert w t intr acc. apply (advance_rel (fun w w' => fresh_from w -> touches (fun s => (s < n0)%nat) w w')).
  - intros w _. apply touches_same; reflexivity.
  - intros a b d H1 H2 F. specialize (H1 F). eapply touches_trans; [exact H1|]. apply H2. intros s Hs. rewrite (t_out _ _ _ H1) by lia. apply F, Hs.
  - intros w t _. apply touches_same; reflexivity.
  - intros w _. apply touches_same; reflexivity.
  - intros w b _ _. apply touches_same; apply finish_bg_same; reflexivity.
  - intros w t s Hd F. apply touches_fire_timeout. destruct (Nat.lt_ge_cases s n0) as [Hlt|Hge]; [exact Hlt|]. rewrite (F s Hge) in Hd. discriminate.
  - intros w e _. apply touches_fire_ext. exact Hn0.
  - intros w _. apply touches_same; apply refresh_bg_same; reflexivity.
Qed.

Definition run_idx (n : nat) (w : world) : Prop :=
  (forall b, In b (w_bg w) -> bg_grp b = hs_grp (w_hs w) -> (bg_idx b < n)%nat) /\ (forall i o, hs_acc (w_hs w) = Some (i, o) -> (i < n)%nat).

Lemma run_idx_same n w w' : w_bg w' = w_bg w -> w_hs w' = w_hs w -> run_idx n w -> run_idx n w'.
Proof. unfold run_idx. intros -> ->. auto. Qed.

Lemma refresh_bg_In w b : In b (w_bg (refresh_bg w)) -> exists b0, In b0 (w_bg w) /\ bg_grp b0 = bg_grp b /\ bg_idx b0 = bg_idx b.
Proof.
  assert (E : forall (t : bool) w', w_bg (if t then set_oof w' else w') = w_bg w') by (intros [|] w'; reflexivity).
  unfold refresh_bg. cbv zeta. rewrite E. cbn [w_bg set_hedge]. intros H. apply in_map_iff in H. destruct H as (b0 & <- & Hin). exists b0. split; [exact Hin|].
  destruct (bg_coop b0) as [[o lag]|]; [|auto]. destruct (_ && _); auto.
Qed.

Lemma advance_run_idx n fuel w t intr acc : run_idx n w -> run_idx n (snd (advance fuel w t intr acc)).
Proof.
  revert w t intr acc. apply (advance_rel (fun w w' => run_idx n w -> run_idx n w')).   (* cases: its hypotheses, in order *)
  1, 2: auto.   (* reflexive, transitive *)
  - (* clock *) intros w t. apply run_idx_same; reflexivity.
  - (* flag *) intros w. apply run_idx_same; reflexivity.
  - (* attempt b returns *) intros w b Hb [Hbg Hacc]. unfold run_idx. rewrite finish_bg_hs, finish_bg_bg.
    assert (Hrest : forall x, In x (bg_remove b (w_bg w)) -> bg_grp x = hs_grp (w_hs w) -> (bg_idx x < n)%nat)
      by (intros x Hx; apply Hbg; exact (proj1 (proj1 (filter_In _ _ _) Hx))).
    destruct (Nat.eqb_spec (bg_grp b) (hs_grp (w_hs w))) as [G|_]; [|split; assumption].   (* of another run: [w_hs] stays *)
    (* of this run: [hs_return] keeps [hs_grp] and may accept b *)
    split; [exact Hrest|]. unfold hs_return. cbv zeta. cbn [hs_acc]. intros i o. destruct (_ && _); [|apply Hacc].
    intros [= <- _]. exact (Hbg b Hb G).
  - intros w t s _. apply run_idx_same; apply fire_timeout_same; reflexivity.
  - intros w e. apply run_idx_same; apply fire_ext_same; reflexivity.
  - (* rescheduling *) intros w [Hbg Hacc]. split; rewrite (refresh_bg_same w_hs) by reflexivity; [|exact Hacc].
    intros b Hb Hg. destruct (refresh_bg_In w b Hb) as (b0 & Hb0 & G & I). rewrite <- I. apply Hbg; [exact Hb0|].
    rewrite G. exact Hg.
Qed.

Lemma hedge_start_run_idx pos total n w : run_idx n w -> run_idx (S n) (hedge_start pos total c n w).
Proof.
  intros [Hbg Hacc]. split; rewrite hedge_start_hs; [|intros i o H; specialize (Hacc i o H); lia].
  intros b Hb Hg. rewrite hedge_start_stages in Hb. destruct (refresh_bg_In _ b Hb) as (b0 & Hb0 & G & I). rewrite <- I. clear Hb.
  unfold launch_attempt in Hb0. cbv zeta in Hb0. cbn [w_bg set_hedge] in Hb0. destruct Hb0 as [<-|Hb0]; [cbn [bg_idx]; lia|].
  rewrite (stamp_same w_bg) in Hb0 by reflexivity. cbn [w_bg emit set_trace set_script] in Hb0.
  assert (Hb1 : In b0 (w_bg w)) by (destruct n; [exact Hb0|rewrite (count_hedge_same w_bg) in Hb0 by reflexivity; exact Hb0]).
  specialize (Hbg b0 Hb1 ltac:(congruence)). lia.
Qed.

Definition pristine (sc : scope) : Prop := sc_deadline sc = None /\ sc_done sc = None.

(* attempt j of the run gets copy m0 + j and scope n0 + j: what [hedge_loop] collects in [started] *)
Definition attempts (k : nat) : list (nat * nat) := map (fun j => (m0 + j, n0 + j)%nat) (seq 0 k).

Lemma nth_error_attempts k j : nth_error (attempts k) j = if Nat.ltb j k then Some ((m0 + j)%nat, (n0 + j)%nat) else None.
Proof.
  unfold attempts. rewrite nth_error_map. destruct (Nat.ltb_spec j k) as [Hlt|Hge].
  - rewrite (nth_error_nth' _ 0%nat), seq_nth by (rewrite ?seq_length; exact Hlt). reflexivity.
  - rewrite (proj2 (nth_error_None _ _)) by (rewrite seq_length; exact Hge). reflexivity.
Qed.

Record HI (k : nat) (w : world) : Prop := {
  hi_sc : (1 <= n0)%nat /\ length (w_scopes w) = (n0 + k)%nat;
  hi_cp : (c < m0)%nat /\ length (w_copies w) = (m0 + k)%nat;
  hi_chain : forall s, In s (cp_chain (get_copy w c)) -> (s < n0)%nat;
  hi_own : forall s, (n0 <= s)%nat -> pristine (get_scope w s);
  hi_each : forall j, (j < k)%nat -> cp_chain (get_copy w (m0 + j)) = (n0 + j)%nat :: cp_chain (get_copy w c);
  hi_idx : run_idx k w }.

Lemma HI_started k w : HI k w -> started_next (attempts k) w = attempts (S k).
Proof. intros H. unfold started_next, attempts. rewrite (proj2 (hi_sc _ _ H)), (proj2 (hi_cp _ _ H)), seq_S, map_app. reflexivity. Qed.

Lemma HI_turn pos total k w w7 : HI k w -> hedge_turn pos total c k w w7 -> HI (S k) w7.
Proof.
  intros [[H1 Ls] [H2 Lc] H3 H4 H5 H6] (f & t & ->).
  set (w6 := hedge_start pos total c k w).
  assert (Es : exists sc, pristine sc /\ w_scopes w6 = w_scopes w ++ [sc])
    by (eexists; split; [|apply (hedge_start_same w_scopes); reflexivity]; split; reflexivity).
  assert (Ec : exists cp, cp_chain cp = length (w_scopes w) :: cp_chain (get_copy w c) /\ w_copies w6 = w_copies w ++ [cp])
    by (eexists; split; [|apply (hedge_start_same w_copies); reflexivity]; reflexivity).
  destruct Es as (sc & Hsc & Es), Ec as (cp & Hcp & Ec).
  assert (Gc : forall i, (i < m0 + k)%nat -> get_copy w6 i = get_copy w i) by (intros i Hi; unfold get_copy; rewrite Ec, app_nth1 by lia; reflexivity).
  assert (O6 : forall s, (n0 <= s)%nat -> pristine (get_scope w6 s))
    by (intros s Hs; unfold get_scope; rewrite Es; apply nth_snoc_inv; [exact (H4 s Hs)|exact Hsc]).
  pose proof (advance_touches f w6 t (Some c) true H1 (fun s Hs => proj1 (O6 s Hs))) as K. set (w7 := snd (advance f w6 t (Some c) true)) in *.
  constructor.   (* from w7 back to w6 by K, from w6 back to w by Es, Ec, Gc *)
  - (* hi_sc *) rewrite (t_sc _ _ _ K), Es, app_length. cbn [length]. lia.
  - (* hi_cp *) rewrite (t_cp _ _ _ K), Ec, app_length. cbn [length]. lia.
  - (* hi_chain *) rewrite (t_chain _ _ _ K), Gc by lia. exact H3.
  - (* hi_own *) intros s Hs. rewrite (t_out _ _ _ K) by lia. exact (O6 s Hs).
  - (* hi_each *) intros j Hj. rewrite !(t_chain _ _ _ K), (Gc c) by lia. destruct (Nat.eq_dec j k) as [->|Hne].
    + (* the new attempt *) unfold get_copy. rewrite Ec, <- Lc, app_nth2, Nat.sub_diag, <- Ls by lia. exact Hcp.
    + (* an earlier attempt *) rewrite Gc by lia. apply H5. lia.
  - apply advance_run_idx, hedge_start_run_idx, H6.
Qed.

Definition only_live (k idx : nat) (w' : world) : Prop :=
  length (w_copies w') = (m0 + k)%nat /\ (idx < k)%nat /\ forall j, (j < k)%nat -> (copy_err w' (m0 + j) = None <-> j = idx).

Lemma HI_accepted k w idx out : HI k w -> is_canceled w c = None -> hs_acc (w_hs w) = Some (idx, out) ->
  only_live k idx (refresh_bg (cancel_others (clear_acc w) (attempts k) 0 idx)).
Proof.
  intros H Ec Ea. pose proof (proj2 (hi_idx _ _ H) idx out Ea) as Hidx. split; [|split; [exact Hidx|intros j Hj]].
  { rewrite (refresh_bg_same (fun w => length (w_copies w))), (t_cp _ _ _ (cancel_others_touches (fun _ => True) _ _ _ _ (fun _ _ _ _ => I))) by reflexivity.
    exact (proj2 (hi_cp _ _ H)). }
  rewrite (refresh_bg_same (fun w => copy_err w _)) by reflexivity. split.
  - intros L. destruct (Nat.eq_dec j idx) as [E|Hne]; [exact E|]. exfalso.
    refine (cancel_others_dead (attempts k) (clear_acc w) 0 idx j (_, _) _ Hne _ _ L); cbn [fst snd].
    + rewrite nth_error_attempts, (proj2 (Nat.ltb_lt _ _) Hj). reflexivity.
    + change (n0 + j < length (w_scopes w))%nat. rewrite (proj2 (hi_sc _ _ H)). lia.
    + change (In (n0 + j)%nat (cp_chain (get_copy w (m0 + j)))). rewrite (hi_each _ _ H j Hj). left. reflexivity.
  - intros ->. apply (touches_live (fun s => exists j, j <> idx /\ s = (n0 + j)%nat) (clear_acc w)).
    + apply cancel_others_touches. intros j cs. rewrite nth_error_attempts. destruct (Nat.ltb j k); [intros [= <-] Hne; exists j; auto|discriminate].
    + (* neither the winner's own scope nor a scope of the run's chain is a loser's *)
      intros s Hs (j & Hne & ->). change (In (n0 + j)%nat (cp_chain (get_copy w (m0 + idx)))) in Hs. rewrite (hi_each _ _ H idx Hidx) in Hs.
      destruct Hs as [E|Hs]; [lia|pose proof (hi_chain _ _ H _ Hs); lia].
    + apply (copy_err_none_iff w (m0 + idx)). rewrite (hi_each _ _ H idx Hidx). intros s [<-|Hs]; [apply (hi_own _ _ H); lia|].
      exact (proj1 (copy_err_none_iff w c) (is_canceled_none _ _ Ec) s Hs).
Qed.

Theorem hloop_one_left cfg pos total k st w r w' ts : hloop cfg pos total c k st w r w' ts -> st = attempts k -> HI k w ->
  w_oof w' = true \/ is_canceled w' c <> None \/ exists idx, only_live (k + length ts) idx w'.
Proof.
  induction 1 as [k st w|k st w w7 cr _ Ec|k st w w7 idx out H7 Ec Ea|k st w w7 _|k st w w7 r w' ts H7 _ _ _ _ _ IH]; intros -> H;
    try (rewrite (HI_started _ _ H) in *; apply (HI_turn pos total _ _ _ H) in H7).
  - left. reflexivity.
  - right. left. rewrite Ec. discriminate.
  - right. right. exists idx. rewrite Nat.add_1_r. exact (HI_accepted _ _ _ _ H7 Ec Ea).
  - left. reflexivity.
  - cbn [length]. rewrite Nat.add_succ_r. exact (IH eq_refl H7).
Qed.
End Run.

(* C09; the premises follow from [Wf]: [hedge_layer_one_left_wf] in Proofs/ExecWF.v *)
Theorem hedge_layer_attempts_one_left pos total cfg c w :
  (1 <= length (w_scopes w))%nat -> (c < length (w_copies w))%nat ->
  (forall s, In s (cp_chain (get_copy w c)) -> (s < length (w_scopes w))%nat) ->
  (forall b, In b (w_bg w) -> (bg_grp b <= hs_grp (w_hs w))%nat) ->
  let w' := snd (hedge_layer pos total cfg c w) in
  w_oof w' = true \/ is_canceled w' c <> None
  \/ exists k idx, length (w_copies w') = (length (w_copies w) + k)%nat /\ (idx < k)%nat
       /\ forall j, (j < k)%nat -> (copy_err w' (length (w_copies w) + j) = None <-> j = idx).
Proof.
  intros H1 H2 H3 H4. destruct (hedge_layer_hloop pos total cfg c w) as [ts H].
  assert (H0 : HI c (length (w_scopes w)) (length (w_copies w)) 0 (run_entry cfg w)).
  { constructor; unfold run_entry; cbn [w_scopes w_copies set_hedge]; [auto|auto|exact H3| | |].
    - (* hi_own: no such scope yet *) intros s Hs. unfold get_scope. rewrite nth_overflow by exact Hs. split; reflexivity.
    - (* hi_each: no attempt yet *) intros j Hj. lia.
    - (* hi_idx: a new run number: no attempt in the background carries it *)
      split; cbn [w_bg w_hs set_hedge hs_grp hs_acc]; [|discriminate]. intros b Hb Hg. specialize (H4 b Hb). lia. }
  destruct (hloop_one_left c _ _ _ _ _ _ _ _ _ _ _ H eq_refl H0) as [O|[Cn|L]];
    [left; exact O|right; left; exact Cn|right; right; exists (length ts); exact L].
Qed.

(* the same for some list of copies and scopes, without saying which *)
Definition one_left (c : nat) (started0 : list (nat * nat)) (w' : world) : Prop :=
  w_oof w' = true
  \/ is_canceled w' c <> None
  \/ exists more idx cw sw, nth_error (started0 ++ more) idx = Some (cw, sw)
       /\ copy_err w' cw = None
       /\ forall j c' s', nth_error (started0 ++ more) j = Some (c', s') -> j <> idx -> copy_err w' c' <> None.

Theorem hedge_layer_one_left pos total cfg c w :
  (1 <= length (w_scopes w))%nat -> (c < length (w_copies w))%nat ->
  (forall s, In s (cp_chain (get_copy w c)) -> (s < length (w_scopes w))%nat) ->
  (forall b, In b (w_bg w) -> (bg_grp b <= hs_grp (w_hs w))%nat) ->
  one_left c [] (snd (hedge_layer pos total cfg c w)).
Proof.
  intros H1 H2 H3 H4.
  destruct (hedge_layer_attempts_one_left pos total cfg c w H1 H2 H3 H4) as [O|[Cn|(k & idx & _ & Hidx & L)]]; [left; exact O|right; left; exact Cn|].
  right. right. exists (attempts (length (w_scopes w)) (length (w_copies w)) k), idx, (length (w_copies w) + idx)%nat, (length (w_scopes w) + idx)%nat.
  cbn [app]. split; [rewrite nth_error_attempts, (proj2 (Nat.ltb_lt _ _) Hidx); reflexivity|]. split; [apply (L idx Hidx); reflexivity|].
  intros j c' s'. rewrite nth_error_attempts. destruct (Nat.ltb_spec j k) as [Hj|_]; [|discriminate].
  intros [= <- _] Hne E. exact (Hne (proj1 (L j Hj) E)).
Qed.
