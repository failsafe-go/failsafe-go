(* C13: Retry delays stay within their configured envelope.
   [get_delay] mirrors retryexecutor.go getDelay with float32/float64 arithmetic computed exactly. *)
From FS Require Import Model.Delay Proofs.DelayProofs Proofs.FloatProofs Corr.C13.

Theorem C13_delay_nonneg : forall c last retries elapsed computed d1 d2 d3,
  0 <= fst (get_delay c last retries elapsed computed d1 d2 d3).
Proof. exact delay_nonneg. Qed.
Print Assumptions C13_delay_nonneg.

Theorem C13_delay_within_max_duration : forall c last retries elapsed computed d1 d2 d3,
  d_max_duration c <> 0 ->
  fst (get_delay c last retries elapsed computed d1 d2 d3) <= Z.max 0 (d_max_duration c - elapsed).
Proof. exact delay_within_max_duration. Qed.
Print Assumptions C13_delay_within_max_duration.

Theorem C13_fixed_delay_exact : forall c last retries elapsed d1 d2 d3,
  d_delay c <> 0 -> 0 <= d_delay c -> d_max_delay c = 0 -> d_jitter c = 0 -> fst (d_jitter_factor c) = 0 -> d_max_duration c = 0 ->
  get_delay c last retries elapsed (-1) d1 d2 d3 = (d_delay c, d_delay c).
Proof. exact fixed_delay_exact. Qed.
Print Assumptions C13_fixed_delay_exact.

Theorem C13_delay_func_value_used : forall c last retries elapsed v d1 d2 d3,
  v <> -1 -> d_jitter c = 0 -> fst (d_jitter_factor c) = 0 -> d_max_duration c = 0 ->
  get_delay c last retries elapsed v d1 d2 d3 = (Z.max 0 v, last).
Proof. exact delay_func_value_used. Qed.
Print Assumptions C13_delay_func_value_used.

Theorem C13_backoff_le_max_and_is_scaled_min : forall c last retries draw,
  d_delay c <> 0 -> last <> 0 -> 1 <= retries -> d_max_delay c <> 0 ->
  fst (fixed_or_random c last retries draw) <= d_max_delay c
  /\ fst (fixed_or_random c last retries draw) = Z.min (to_int (fmul 24 (of_int 24 last) (d_factor c))) (d_max_delay c).
Proof. exact backoff_le_max. Qed.
Print Assumptions C13_backoff_le_max_and_is_scaled_min.

Theorem C13_backoff_sequence : forall c k,
  d_delay c <> 0 -> d_max_delay c <> 0 -> backoff_seq c k <> 0 ->
  backoff_seq c (S k) = Z.min (to_int (fmul 24 (of_int 24 (backoff_seq c k)) (d_factor c))) (d_max_delay c).
Proof. exact backoff_sequence. Qed.
Print Assumptions C13_backoff_sequence.

(* with WithDelay / WithBackoff: the stored last delay ([snd]), hence every later backoff value, does not depend on any draw *)
Theorem C13_jitter_does_not_accumulate : forall c last retries elapsed computed d1 d2 d3 e1 e2 e3,
  d_delay c <> 0 ->
  snd (get_delay c last retries elapsed computed d1 d2 d3) = snd (get_delay c last retries elapsed computed e1 e2 e3).
Proof. exact jitter_does_not_accumulate. Qed.
Print Assumptions C13_jitter_does_not_accumulate.

(* |x| <= B, B with at most p significant bits (normalised mantissa mB, exponent -sB)  ->  |rnd x| <= B *)
Theorem C13_rounding_stays_within_representable_bound : forall p x mB sB,
  2 <= p -> wf x -> 2 ^ (p - 1) <= mB < 2 ^ p ->
  fle x (bval mB sB) -> fle (fneg (bval mB sB)) x ->
  fle (rnd p x) (bval mB sB) /\ fle (fneg (bval mB sB)) (rnd p x).
Proof. exact rnd_abs_le. Qed.
Print Assumptions C13_rounding_stays_within_representable_bound.

(* a jitter duration shifts the delay by at most that duration: util.RandomDelay in float64, every delay, every jitter
   below 2^53 ns (104 days), every draw in [0, 1) *)
Theorem C13_jitter_duration_envelope : forall delay jitter random,
  0 < jitter < 2 ^ 53 -> wf random -> 0 <= fst random < snd random ->
  delay - jitter <= random_delay delay jitter random <= delay + jitter.
Proof. exact jitter_envelope. Qed.
Print Assumptions C13_jitter_duration_envelope.

(* a random delay lies within [delayMin, delayMax]: util.RandomDelayInRange in float64, positive bounds below 2^53 ns, every draw *)
Theorem C13_random_range_envelope : forall dmin dmax random,
  0 < dmin -> dmin <= dmax -> dmax < 2 ^ 53 -> wf random -> 0 <= fst random < snd random ->
  dmin <= random_delay_in_range dmin dmax random <= dmax.
Proof. exact random_range_envelope. Qed.
Print Assumptions C13_random_range_envelope.

(* backoff does not decrease: one step Duration(float32(last) * factor) is at least [last] whenever [last] is exactly
   representable in float32 (at most 24 significant bits) and factor >= 1.  A whole number n of milliseconds is
   n * 15625 * 2^6 ns, so it is representable iff the odd part of n is at most 1073: every one up to 1073 ms is, 1075 ms is not *)
Theorem C13_backoff_step_not_below : forall mB sB last factor,
  2 ^ 23 <= mB < 2 ^ 24 -> wf factor -> snd factor <= fst factor ->
  fle (last, 1) (bval mB sB) -> fle (bval mB sB) (last, 1) ->
  last <= to_int (fmul 24 (of_int 24 last) factor).
Proof. exact backoff_step_not_below. Qed.
Print Assumptions C13_backoff_step_not_below.

(* "backoff equals delay*factor^k" up to float32 rounding, one step: for EVERY positive last delay and positive factor,
   |Duration(float32(last) * factor) - last*factor| <= last*factor / 2^22 + 1 ns *)
Theorem C13_backoff_step_equals_product_up_to_rounding : forall last fn fd,
  0 < last -> 0 < fn -> 0 < fd ->
  let step := to_int (fmul 24 (of_int 24 last) (fn, fd)) in
  2 ^ 22 * Z.abs (step * fd - last * fn) <= last * fn + 2 ^ 22 * fd.
Proof. exact backoff_step_accuracy. Qed.
Print Assumptions C13_backoff_step_equals_product_up_to_rounding.

(* a jitter FACTOR shifts the delay by at most jitterFactor * delay, up to float32 rounding: util.RandomDelayFactor in float32,
   every positive delay, every float32 jitter factor in (0, 1), every draw in [0, 1):
   |jittered - delay| <= jitterFactor * delay + delay / 2^20 + 1 ns *)
Theorem C13_jitter_factor_envelope : forall delay mJ sJ random,
  0 < delay -> 2 ^ 23 <= mJ < 2 ^ 24 -> fst (bval mJ sJ) < snd (bval mJ sJ) ->
  wf random -> 0 <= fst random < snd random ->
  let jf := bval mJ sJ in
  2 ^ 20 * snd jf * Z.abs (random_delay_factor delay jf random - delay)
  <= 2 ^ 20 * delay * fst jf + delay * snd jf + 2 ^ 20 * snd jf.
Proof. exact jitter_factor_envelope. Qed.
Print Assumptions C13_jitter_factor_envelope.

(* premises are satisfiable: 100 ms = 390625 * 2^8 ns has 19 significant bits *)
Example C13_100ms_is_representable :
  let mB := 390625 * 2 ^ 5 in let sB := -3 in
  2 ^ 23 <= mB < 2 ^ 24 /\ fle (100000000, 1) (bval mB sB) /\ fle (bval mB sB) (100000000, 1).
Proof. vm_compute. repeat split; discriminate. Qed.

(* "Backoff never decreases" holds exactly on float32-representable delays (C13_backoff_step_not_below) and otherwise up to
   the rounding bound of C13_backoff_step_equals_product_up_to_rounding (e.g. 16777217 ns with factor 1 gives 16777216 ns).
   "The next attempt never starts before the scheduled delay has elapsed" is Model/Exec.v's retry loop
   (wait d between RetryScheduled and the next attempt) and is compared instant by instant (C02, C16). *)
