(* C05: Rate limiter never admits faster than configured; refusals cost nothing.
   [lim_run] is the Gallina mirror of ratelimiterstats.go + ratelimiter.go,
   [spec_run] the abstract grant ledger of Spec/LimiterSpec.v (one entry per granted permit =
   the interval slot / period in which it becomes usable). *)
From FS Require Import Spec.LimiterSpec Proofs.LimiterProofs Corr.C05.

(* 1. Refinement: for every configuration and every call history the code's answers
      (values and return instants of all API calls) are the ledger's answers. *)
Theorem C05_refines_ledger : forall c h,
  cfg_ok c = true -> hist_ok 0 h = true ->
  lim_run c (lim_init c) h = spec_run c [] h.
Proof. exact lim_refines_ledger. Qed.
Print Assumptions C05_refines_ledger.

(* 2. Capacity: after any history no interval slot (smooth: capacity 1) and no period
      (bursty: capacity maxExecutions) holds more granted permits than its capacity. *)
Theorem C05_capacity : forall c h s,
  cfg_ok c = true -> count (spec_final c [] h) s <= slot_cap c.
Proof. exact capacity_respected. Qed.
Print Assumptions C05_capacity.

(* 3. Each permit is usable at request instant + wait, that instant lies in the slot the
      ledger records, the slot is not before the request's own slot, it had room, and every
      slot between the request's slot and it was full: the earliest grant respecting order. *)
Theorem C05_permit_earliest_and_in_slot : forall c l now,
  0 < slot_cap c -> 0 < slot_width c -> 0 <= now ->
  let '(w, s) := spec_single c l now in
  0 <= w /\ (now + w) / slot_width c = s /\ now / slot_width c <= s /\
  count l s < slot_cap c /\ (forall p, now / slot_width c <= p < s -> slot_cap c <= count l p).
Proof. exact spec_single_props. Qed.
Print Assumptions C05_permit_earliest_and_in_slot.

(* 4. k permits at once = one permit then k-1 more at the same instant (code level, no max wait);
      at the ledger level it is the definition of [spec_acquire]. *)
Theorem C05_k_permits_smooth : forall i nfpt now k,
  0 < i -> 0 <= now -> 1 <= k ->
  smooth_acquire i nfpt now (1 + k) (-1) =
  smooth_acquire i (snd (smooth_acquire i nfpt now 1 (-1))) now k (-1).
Proof. exact smooth_split_front. Qed.
Print Assumptions C05_k_permits_smooth.

Theorem C05_k_permits_bursty : forall pp period s now k,
  1 <= k ->
  bursty_acquire pp period s now (1 + k) (-1) =
  bursty_acquire pp period (snd (bursty_acquire pp period s now 1 (-1))) now k (-1).
Proof. exact bursty_split_front. Qed.
Print Assumptions C05_k_permits_bursty.

(* 5. A refused request (TryAcquire false / TryReserve -1 / ErrExceeded) leaves the limiter
      as if it had never been made: every later history sees identical answers. *)
Theorem C05_refusal_invisible : forall c h0 now op h,
  cfg_ok c = true -> hist_ok 0 (h0 ++ (now, op) :: h) = true ->
  let s := api_final (lim_acquire c) (lim_init c) h0 in
  fst (lim_acquire c s now (op_permits op) (op_maxw op)) = -1 ->
  lim_run c (snd (api_step (lim_acquire c) s now op)) h = lim_run c s h.
Proof. exact refusal_invisible. Qed.
Print Assumptions C05_refusal_invisible.

(* 6. A blocking acquire returns exactly at request instant + wait (never earlier). *)
Theorem C05_blocking_not_early : forall c s now k,
  o_ret (fst (lim_step c s now (OpAcquire k))) = now + fst (lim_acquire c s now k (-1)).
Proof. intros c s now k. unfold lim_step. cbn [api_step]. destruct (lim_acquire c s now k (-1)). reflexivity. Qed.
Print Assumptions C05_blocking_not_early.

(* 7. Used by the correspondence: an implementation trace equal to the model's satisfies the ledger. *)
Theorem C05_checker_sound : forall c, case_guard c = true -> model_obs c = spec_obs c.
Proof.
  intros c H. unfold case_guard in H. apply andb_true_iff in H. destruct H as [H1 H2].
  unfold model_obs, spec_obs. f_equal. exact (lim_refines_ledger _ _ H1 H2).
Qed.
Print Assumptions C05_checker_sound.

(* non-vacuity: a concrete history meets the guards, contains refusals, waits and an idle gap *)
Example C05_guard_inhabited :
  let c := Bursty 2 1000 in
  let h := [(0, OpReserve 3); (10, OpTryAcquire 1); (10, OpTryReserve 2 1500); (2001, OpTryAcquire 1); (2001, OpTryAcquire 2)] in
  cfg_ok c = true /\ hist_ok 0 h = true /\
  map o_val (lim_run c (lim_init c) h) = [1000; 0; -1; 1; 0].
Proof. vm_compute. auto. Qed.

(* Finding F1 (repaired in /repo by a fix: commit): without the cap at the roll-over ([bursty_acquire_prefix]) three permits become
   usable in one period of a Bursty(2, 1s) limiter. *)
Theorem C05_refuted_before_fix :
  map o_val (api_run (bursty_acquire_prefix 2 1000000000) {| b_avail := 2; b_cur := 0 |} f1_hist)
  = [1000000000; 1; 1; 1].
Proof. exact bursty_overshoot_before_fix. Qed.
Print Assumptions C05_refuted_before_fix.
