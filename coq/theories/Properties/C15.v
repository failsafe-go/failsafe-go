(* C15: Async results follow the future protocol and agree with sync execution. *)
From FS Require Import Model.Future Proofs.FutureProofs Model.Exec Proofs.ExecProofs Corr.C15.

(* every interleaving of the runner's publication steps with any number of readers: Done is closed at most
   once, only after the result was stored (which happens after the listeners ran), and every
   Get/Result/Error that returns does so after the close and sees the published result *)
Theorem C15_done_closed_once_after_result : forall tr,
  let s := fut_run tr in
  (f_closed s <= 1)%nat /\ (f_closed s = 1%nat -> f_stored s = true /\ f_r s = RClosed) /\ (forall b, In b (f_gets s) -> b = true).
Proof. exact done_closed_once_after_result. Qed.
Print Assumptions C15_done_closed_once_after_result.

(* IsDone is true exactly from the close on ([is_done true]: the code with the fix for finding F4) *)
Theorem C15_isdone_iff_closed : forall tr, is_done true (fut_run tr) = done_closed (fut_run tr).
Proof. exact isdone_iff_closed. Qed.
Print Assumptions C15_isdone_iff_closed.

Theorem C15_isdone_before_close_refuted_before_fix :
  exists tr, is_done false (fut_run tr) = true /\ done_closed (fut_run tr) = false.
Proof. exact isdone_before_close_prefix. Qed.
Print Assumptions C15_isdone_before_close_refuted_before_fix.

(* Cancel(): for every interleaving with the retry loop's bookkeeping (fixed protocol: the cancellation
   result is stored and the context cancelled in one critical section) an execution that notices the
   cancellation reports ErrExecutionCanceled *)
Theorem C15_async_cancel_attribution : forall tr, fixed_trace tr = true ->
  k_report (crace_run tr) = RepNone \/ k_report (crace_run tr) = RepExecCanceled.
Proof. exact async_cancel_attribution. Qed.
Print Assumptions C15_async_cancel_attribution.

Theorem C15_async_cancel_misattributed_before_fix : k_report (crace_run [KA; KInit; KB; KCheck]) = RepCtxCanceled.
Proof. exact async_cancel_misattributed_prefix. Qed.
Print Assumptions C15_async_cancel_misattributed_before_fix.

(* async = sync is not a theorem: Model/Exec.v has one [execute] for both entry points, and the differential in the
   correspondence compares each scenario through a sync and the matching async entry point with that single model. *)

Theorem C15_cancel_result_is_cause : forall w c cr, is_canceled w c = Some cr ->
  match w_cell w with
  | Some r => cr = r
  | None => pr_err cr = copy_err w c /\ pr_done cr = true
  end.
Proof. exact cancel_result_is_cause. Qed.
Print Assumptions C15_cancel_result_is_cause.

(* a Cancel that takes effect while the retry policy handles the failure it gives up on (retries exceeded, abort) -- after the
   loop looked at the cancellation, e.g. while a failure listener runs -- is reported: the policy returns the cancellation's
   result (what the canceller stored, C15_cancel_result_is_cause: ErrExecutionCanceled for ExecutionResult.Cancel()), not
   ExceededError (finding F17); any inner layer, any world *)
Theorem C15_cancel_while_giving_up_is_reported : forall cfg pos (inner : layer) fuel c w cr,
  let r := fst (inner c w) in let w1 := snd (inner c w) in
  let r2 := fst (retry_on_failure cfg pos c (with_failure r) w1) in
  let w2 := snd (retry_on_failure cfg pos c (with_failure r) w1) in
  is_canceled w1 c = None -> rs_exceeded (get_rstate w1 pos) = false ->
  is_failure (r_fpol cfg) (pr_out r) = true -> pr_done r2 = true -> is_canceled w2 c = Some cr ->
  retry_loop (S fuel) cfg pos inner c w = (cr, w2, 1%nat).
Proof. cbv zeta. intros cfg pos inner fuel c w cr Hc He Hf Hd Hc2. rewrite (retry_gives_up cfg pos inner fuel c w Hc He Hf Hd), Hc2. reflexivity. Qed.
Print Assumptions C15_cancel_while_giving_up_is_reported.
