(* C04: An open breaker admits nothing; half-open admits at most its trial capacity.
   The interleaving model (Model/BreakerConc.v): any number of execution threads, each performing
   the two atomic breaker operations of the code (admission, recording) with arbitrary other
   steps, clock advances and manual state changes in between. *)
From FS Require Import Model.BreakerConc Proofs.BreakerProofs Proofs.BreakerConcProofs Corr.C04.

(* 1. Open admits nothing: in ANY configuration (whatever other threads are doing) an admission
      request that finds the breaker open before its delay elapsed is rejected (ErrOpen) and
      changes nothing else. *)
Theorem C04_open_rejects_all : forall S (I : stats_impl S) c k i a st d,
  cf_state k = Open a st d -> cf_now k - st < d -> nth i (cf_threads k) TDone = TIdle ->
  conc_step I c k (CAcquire i) =
    {| cf_state := cf_state k; cf_now := cf_now k; cf_gen := cf_gen k;
       cf_threads := set_thread i TRejected (cf_threads k) |}.
Proof. exact @open_rejects_all. Qed.
Print Assumptions C04_open_rejects_all.

(* 2. The invariant (permits + running trials of the current half-open generation = capacity;
      no running thread carries the generation of an open state) is kept by every step that is
      not a stale record, hence by every interleaving without one, of any length, for any
      number of threads. *)
Theorem C04_run_preserves_inv : forall S (I : stats_impl S) c, 1 <= halfopen_capacity c ->
  forall tr k, Inv c k -> no_stale I c k tr = true -> Inv c (conc_run I c k tr).
Proof. exact @run_preserves_inv. Qed.
Print Assumptions C04_run_preserves_inv.

(* 3. Half-open bound and permit return: never more than capacity trials of the current
      half-open state in flight; when none is in flight every permit is back. *)
Theorem C04_half_open_bound : forall S (I : stats_impl S) c, 1 <= halfopen_capacity c ->
  forall tr k, Inv c k -> no_stale I c k tr = true ->
  match cf_state (conc_run I c k tr) with
  | HalfOpen _ p => 0 <= inflight_now (conc_run I c k tr) <= halfopen_capacity c
                    /\ (inflight_now (conc_run I c k tr) = 0 -> p = halfopen_capacity c)
  | _ => True
  end.
Proof. exact @half_open_bound. Qed.
Print Assumptions C04_half_open_bound.

(* 4. The initial configuration satisfies the invariant (so the theorems are not vacuous). *)
Theorem C04_inv_init : forall S (I : stats_impl S) c threads,
  (forall t, In t threads -> t = TIdle) -> forall now,
  Inv c {| cf_state := new_closed I c; cf_now := now; cf_gen := 0; cf_threads := threads |}.
Proof. exact @inv_init. Qed.
Print Assumptions C04_inv_init.

(* 5. Used by the correspondence: the snapshot checker holds on every model trace without stale records. *)
Theorem C04_checker_sound : forall c tr, 1 <= halfopen_capacity c ->
  forall k, 0 <= cf_gen k -> Inv c k -> no_stale conc_impl c k tr = true ->
  forallb (snap_ok (halfopen_capacity c)) (model_snaps c k tr) = true.
Proof. exact model_snaps_ok. Qed.
Print Assumptions C04_checker_sound.

(* 6. A stale record at work (witness evaluated by the kernel; trial capacity 1): execution 0, admitted before the
      breaker opened, records its success while the breaker is half-open; that closes the breaker with trial 2 still
      running, and execution 3 is admitted too.  The half-open bound is not broken here: the breaker ends closed. *)
Theorem C04_bound_needs_proviso :
  let c := build_bcfg [WithFailureThreshold 1; WithDelay 0] in
  let k0 := {| cf_state := cb_init c; cf_now := 0; cf_gen := 0; cf_threads := [TIdle; TIdle; TIdle; TIdle] |} in
  let tr := [CAcquire 0; CAcquire 1; CRecord 1 false None; CAcquire 2; CRecord 0 true None; CAcquire 3] in
  no_stale conc_impl c k0 tr = false /\
  map (fun t => match t with TInFlight _ => true | _ => false end) (cf_threads (conc_run conc_impl c k0 tr))
    = [false; false; true; true].
Proof. exact half_open_bound_needs_proviso. Qed.
Print Assumptions C04_bound_needs_proviso.
