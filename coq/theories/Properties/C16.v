(* C16: Events are emitted exactly once per occurrence and tell a consistent story. *)
From FS Require Import Model.Exec Proofs.ExecProofs Proofs.ExecStats Proofs.BreakerProofs Proofs.ExecRetryEvents Proofs.ExecCheckerProofs Proofs.ExecEventsProofs Spec.Verdict Proofs.ExecVerdictEvents Proofs.ExecExhaustion Corr.C16.

(* executor: one success-or-failure event matching SuccessAll, then one done event, both carrying the returned result *)
Theorem C16_completion_events : forall fuel stack w,
  let '(r, w1) := compose fuel 0 stack (length stack) 0%nat w in
  fst (execute fuel stack w) = r /\
  exists e1 e2, w_trace (snd (execute fuel stack w)) = e2 :: e1 :: w_trace w1
    /\ e_kind e2 = KExecDone /\ e_kind e1 = (if pr_all r then KExecSuccess else KExecFailure)
    /\ e_out e1 = pr_out r /\ e_out e2 = pr_out r.
Proof. exact execute_outermost_and_verdict. Qed.
Print Assumptions C16_completion_events.

(* every retry started is counted exactly once: in the complete log of any execution through any
   stack each event's Retries equals the number of OnRetry events so far (so OnRetry fires once
   per retry actually started), Hedges the number of OnHedge events so far (once per hedge started),
   Executions the number of function returns so far *)
Theorem C16_retry_events_counted_once : forall fuel stack now ext key b l k c script,
  trace_ok (w_trace (drain (snd (execute fuel stack (fresh_world now ext key b l k c script))))).
Proof. exact execution_statistics_exact. Qed.
Print Assumptions C16_retry_events_counted_once.

(* per retry policy (stack position), in the complete log of any execution through any stack: every OnRetry is preceded by
   its own OnRetryScheduled -- a decided retry may be cancelled before it starts (an unpaired OnRetryScheduled), but no
   retry starts without having been decided.  [st pos] runs the pairing automaton of position pos over the log. *)
Theorem C16_on_retry_follows_its_on_retry_scheduled : forall fuel stack now ext key b l k c script pos,
  st pos (w_trace (drain (snd (execute fuel stack (fresh_world now ext key b l k c script))))) <> None.
Proof. intros. apply retry_events_pair_up. Qed.
Print Assumptions C16_on_retry_follows_its_on_retry_scheduled.

(* used by the correspondence: the executable form of the pairing accepts every model log *)
Theorem C16_pairing_checker_accepts_model : forall fuel stack now ext key b l k c script pos,
  retry_pairs_ok pos false (rev (w_trace (drain (snd (execute fuel stack (fresh_world now ext key b l k c script)))))) = true.
Proof. intros. apply retry_pairs_scan. rewrite <- st_scan. apply retry_events_pair_up. Qed.
Print Assumptions C16_pairing_checker_accepts_model.

(* no OnFallbackExecuted without a handled failure (any inner layer): a result the fallback does not handle passes through and
   the layer logs its OnSuccess and nothing else; that a handled failure, not cancelled meanwhile, is followed by exactly one
   OnFallbackExecuted is C10_handled_failure_is_replaced_once *)
Theorem C16_fallback_event_iff_applied : forall pos cfg (inner : layer) c w,
  let r := fst (inner c w) in let w1 := snd (inner c w) in
  is_failure (fb_fpol cfg) (pr_out r) = false ->
  fallback_layer pos cfg inner c w = (with_done r true true, ev_with_result w1 c KPolSuccess pos (with_done r true true)).
Proof. exact fallback_unhandled_passes_through. Qed.
Print Assumptions C16_fallback_event_iff_applied.

(* OnRateLimitExceeded fires exactly when the limiter refuses (any inner layer, any world): a granted permit -- waited for
   to the end or interrupted by a cancellation -- adds no event of this layer *)
Theorem C16_rate_limit_event_only_on_refusal : forall pos inst mw (inner : layer) c w,
  let '(cfg, base, s) := nth inst (w_limiters w) (Smooth 1, 0, SSmooth 0) in
  let '(wt, s') := lim_acquire cfg s (w_now w - base) 1 mw in
  let w1 := set_insts w (w_breakers w) (upd inst (fun p => (fst p, s')) (w_limiters w)) (w_bulkheads w) (w_caches w) in
  (wt = -1 -> limiter_layer pos inst mw inner c w = (failure_result ERate, stamp (emit w1 KRateExceeded pos (snapshot w1 c) 0) c))
  /\ (wt <> -1 ->
      snd (limiter_layer pos inst mw inner c w) =
      if fst (wait w1 wt (Some c)) then snd (wait w1 wt (Some c)) else snd (inner c (snd (wait w1 wt (Some c))))).
Proof. exact limiter_event_only_on_refusal. Qed.
Print Assumptions C16_rate_limit_event_only_on_refusal.

(* Finding F12 (repaired in /repo by a fix: commit): a limiter whose wait, interrupted by the cancellation of the execution, returns Execution.LastError()
   ([limiter_layer_gen true]) returns the PREVIOUS attempt's error; after a refused attempt that stale error is
   ErrExceeded and OnRateLimitExceeded fires although this attempt's permit had been granted.
   Retry(3 retries, 2048 ns) around Bursty(1 per 16384 ns, max wait 10304 ns), caller cancels at 7000 ns:
   refusals at 2048 and 4096 (events), the attempt at 6144 waits, and at 7000 a third event is logged. *)
Theorem C16_rate_limit_event_without_refusal_before_fix :
  let rc := {| r_fpol := build_fpolicy []; r_abort := []; r_max_retries := 3; r_max_duration := 0; r_return_last := false; r_delay := 2048; r_lsn_dur := 0 |} in
  let lim := (Bursty 1 16384, 0, lim_init (Bursty 1 16384)) in
  let script := [ {| fs_out := (0, Some (ESent 0)); fs_dur := 0; fs_coop := None; fs_lag := 0 |} ] in
  let w0 := fresh_world 0 (Some (7000, ECtxCanceled)) CKNone [] [lim] [] [] script in
  let events stale := map (fun e => e_time e)
       (filter (fun e => match e_kind e with KRateExceeded => true | _ => false end)
               (rev (w_trace (snd (fst (retry_loop 10 rc 0 (limiter_layer_gen stale 1 0 10304 (fn_layer 2)) 0%nat w0)))))) in
  events true = [2048; 4096; 7000] /\ events false = [2048; 4096].
Proof. vm_compute. auto. Qed.
Print Assumptions C16_rate_limit_event_without_refusal_before_fix.

(* OnFull fires exactly when the bulkhead refuses (any inner layer, any world): an execution that arrives cancelled, an
   admitted one, and one whose wait is interrupted by a cancellation add no event of this layer; a full bulkhead that
   does not wait, or whose wait runs to its end, reports ErrFull with exactly one OnFull *)
Theorem C16_full_event_only_on_refusal : forall pos inst mw (inner : layer) c w,
  let cap := fst (nth inst (w_bulkheads w) (0, 0)) in
  let held := snd (nth inst (w_bulkheads w) (0, 0)) in
  let setheld (w : world) (h : Z) :=
    set_insts w (w_breakers w) (w_limiters w) (upd inst (fun p => (fst p, h)) (w_bulkheads w)) (w_caches w) in
  (forall e, copy_err w c = Some e -> bulkhead_layer pos inst mw inner c w = (failure_result (cancel_error w c), w))
  /\ (copy_err w c = None -> held < cap ->
      kps (snd (bulkhead_layer pos inst mw inner c w)) = kps (snd (inner c (setheld w (held + 1)))))
  /\ (copy_err w c = None -> cap <= held -> mw = 0 ->
      fst (bulkhead_layer pos inst mw inner c w) = failure_result EFull
      /\ kps (snd (bulkhead_layer pos inst mw inner c w)) = (KFull, pos) :: kps w)
  /\ (copy_err w c = None -> cap <= held -> mw <> 0 ->
      let i := fst (wait w mw (Some c)) in let w1 := snd (wait w mw (Some c)) in
      (i = true -> kps (snd (bulkhead_layer pos inst mw inner c w)) = kps w1
                   /\ fst (bulkhead_layer pos inst mw inner c w)
                      = failure_result (cancel_error w1 c))
      /\ (i = false -> fst (bulkhead_layer pos inst mw inner c w) = failure_result EFull
                       /\ kps (snd (bulkhead_layer pos inst mw inner c w)) = (KFull, pos) :: kps w1)).
Proof. exact bulkhead_full_event_only_on_refusal. Qed.
Print Assumptions C16_full_event_only_on_refusal.

(* a retry policy's verdict on a failed attempt (any world, any ledger): OnFailure always; OnAbort exactly when the outcome
   matches an abort condition; OnRetriesExceeded exactly when the budget (max retries or max duration) is exhausted and
   the outcome is not an abort; either of them ends the policy's run (Done), and exhaustion is remembered in the ledger,
   after which the retry loop returns without consulting the policy again -- so neither fires twice in one run (stated over
   whole logs by C16_verdict_events_consistent below) *)
Theorem C16_abort_and_exceeded_events_in_their_situation : forall cfg pos c r w,
  let w0 := pause (ev_with_result w c KPolFailure pos r) (r_lsn_dur cfg) in    (* OnFailure logged, and its listener has returned *)
  let failed := rs_failed (get_rstate w pos) + 1 in
  let exceeded := (negb (r_max_retries cfg =? -1) && (r_max_retries cfg <? failed))
                  || (negb (r_max_duration cfg =? 0) && (r_max_duration cfg <? w_now w0 - w_start w0)) in
  let abortable := is_abortable (r_abort cfg) (pr_out r) in
  kps (snd (retry_on_failure cfg pos c r w)) =
    (if exceeded && negb abortable then [(KRetriesExceeded, pos)] else [])
    ++ (if abortable then [(KAbort, pos)] else []) ++ kps w0
  /\ (r_lsn_dur cfg <= 0 -> kps w0 = (KPolFailure, pos) :: kps w)
  /\ (abortable || exceeded = true -> pr_done (fst (retry_on_failure cfg pos c r w)) = true)
  /\ rs_exceeded (get_rstate (snd (retry_on_failure cfg pos c r w)) pos) = exceeded.
Proof. exact retry_failure_events. Qed.
Print Assumptions C16_abort_and_exceeded_events_in_their_situation.

(* OnTimeoutExceeded is logged by the timer callback, which is also what makes the Timeout report ErrExceeded
   (C07_timeout_layer_outcome: a Timeout whose scope is marked fired returns ErrExceeded, one whose scope is not returns
   what the layer inside returned) *)
Theorem C16_timeout_event_iff_fired : forall w s, (s < length (w_scopes w))%nat ->
  kps (fire_timeout w s) = (KTimeoutExceeded, sc_pos (get_scope w s)) :: kps w
  /\ sc_fired (get_scope (fire_timeout w s) s) = true.
Proof. exact timeout_event_iff_fired_step. Qed.
Print Assumptions C16_timeout_event_iff_fired.

(* ... and over whole logs: in the complete log of any execution through any stack, at every stack position, the events
   satisfy the automaton of Spec/Verdict.v -- OnAbort and OnRetriesExceeded are each logged directly after an OnFailure
   of the same position, at most one of them, and nothing of that position but a new OnFailure / OnSuccess follows them
   (so neither fires twice in a run of the policy and no retry is scheduled after them); OnRetryScheduled directly follows
   an OnFailure; OnRetry follows its OnRetryScheduled *)
Theorem C16_verdict_events_consistent : forall fuel stack now ext key b l k c script pos,
  vst pos (drain (snd (execute fuel stack (fresh_world now ext key b l k c script)))) <> None.
Proof. exact verdict_events_consistent. Qed.
Print Assumptions C16_verdict_events_consistent.

(* used by the correspondence: the executable form (run over the log in the order it was written, with the entries of
   unregistered listeners left out) accepts every model log *)
Theorem C16_verdict_checker_accepts_model : forall fuel stack now ext key b l k c script lsn mask pos,
  vrun pos (map kp (filter (blsn_keeps mask) (filter (lsn_keeps lsn)
     (rev (w_trace (drain (snd (execute fuel stack (fresh_world now ext key b l k c script))))))))) <> None.
Proof. exact verdict_checker_accepts_model. Qed.
Print Assumptions C16_verdict_checker_accepts_model.

(* breaker state-change events form a connected path from the initial state, specific listener then generic *)
Theorem C16_breaker_events_form_path : forall S (I : stats_impl S) c h s,
  events_path (state_code s) (flat_map ob_events (brun I c s h)) = Some (state_code (bfinal I c s h)).
Proof. exact @history_events_form_path. Qed.
Print Assumptions C16_breaker_events_form_path.

(* exhaustion is final: in the complete log of any execution through any stack, at every position, once a retry policy has
   logged OnRetriesExceeded it logs nothing more -- no verdict, no OnAbort, no second OnRetriesExceeded, no retry scheduled or
   started -- however often the policies around it re-enter it ([xstk pos] runs the automaton of Spec/Verdict.v over the log) *)
Theorem C16_exhaustion_is_final : forall fuel stack now ext key b l k c script pos,
  xstk pos (kps (drain (snd (execute fuel stack (fresh_world now ext key b l k c script))))) <> None.
Proof. exact exhaustion_is_final. Qed.
Print Assumptions C16_exhaustion_is_final.

(* used by the correspondence: the executable form accepts every model log *)
Theorem C16_exhaustion_checker_accepts_model : forall fuel stack now ext key b l k c script lsn mask q o,
  q_stack q = stack ->
  x_events o = filter (blsn_keeps mask) (filter (lsn_keeps lsn)
     (rev (w_trace (drain (snd (execute fuel stack (fresh_world now ext key b l k c script))))))) ->
  exhaustion_ok q o = true.
Proof. exact exhaustion_checker_accepts_model. Qed.
Print Assumptions C16_exhaustion_checker_accepts_model.
