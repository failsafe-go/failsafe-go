(* C08: Cancellation stops the execution promptly and is reported as its cause.
   (Retry-based compositions on Model/Exec.v; hedge: Properties/C09.v; async Cancel(): Properties/C15.v.) *)
From FS Require Import Model.Exec Proofs.ExecProofs Proofs.ExecEventsProofs Corr.C08.

Theorem C08_cancel_result_is_cause : forall w c cr, is_canceled w c = Some cr ->
  match w_cell w with
  | Some r => cr = r
  | None => pr_err cr = copy_err w c /\ pr_done cr = true
  end.
Proof. exact cancel_result_is_cause. Qed.
Print Assumptions C08_cancel_result_is_cause.

Theorem C08_retry_returns_cancel_result : forall cfg pos (inner : layer) fuel c w cr,
  is_canceled (snd (inner c w)) c = Some cr ->
  retry_loop (S fuel) cfg pos inner c w = (cr, snd (inner c w), 1%nat).
Proof. exact retry_returns_cancel_result. Qed.
Print Assumptions C08_retry_returns_cancel_result.

Theorem C08_wait_interrupted_immediately : forall w d c e, copy_err w c = Some e -> wait w d (Some c) = (true, w).
Proof. exact wait_interrupted_immediately. Qed.
Print Assumptions C08_wait_interrupted_immediately.

Theorem C08_no_fallback_after_cancel : forall pos cfg (inner : layer) c w cr,
  let r := fst (inner c w) in let w1 := snd (inner c w) in
  let w2 := pause (ev_with_result w1 c KPolFailure pos (with_failure r)) (fb_lsn_dur cfg) in
  is_failure (fb_fpol cfg) (pr_out r) = true -> is_canceled w2 c = Some cr ->
  fallback_layer pos cfg inner c w = (cr, w2).
Proof. exact fallback_not_applied_when_cancelled. Qed.
Print Assumptions C08_no_fallback_after_cancel.

(* a cancellation that arrives while a fallback function runs is what the fallback layer reports: its result (whose error is the
   cause, C08_cancel_result_is_cause), not the function's output *)
Theorem C08_cancel_during_fallback_reported : forall pos cfg (inner : layer) c w cr,
  let r := fst (inner c w) in let w1 := snd (inner c w) in
  let w2 := pause (ev_with_result w1 c KPolFailure pos (with_failure r)) (fb_lsn_dur cfg) in
  let w3 := pause w2 (fb_dur cfg) in
  is_failure (fb_fpol cfg) (pr_out r) = true -> is_canceled w2 c = None -> is_canceled w3 c = Some cr ->
  fallback_layer pos cfg inner c w = (cr, w3).
Proof. exact fallback_output_dropped_when_cancelled_meanwhile. Qed.
Print Assumptions C08_cancel_during_fallback_reported.

Theorem C08_limiter_wait_interrupted : forall pos inst mw (inner inner' : layer) c w,
  let '(cfg, base, s) := nth inst (w_limiters w) (Smooth 1, 0, SSmooth 0) in
  let '(wt, s') := lim_acquire cfg s (w_now w - base) 1 mw in
  let w1 := set_insts w (w_breakers w) (upd inst (fun p => (fst p, s')) (w_limiters w)) (w_bulkheads w) (w_caches w) in
  wt <> -1 -> fst (wait w1 wt (Some c)) = true ->
  limiter_layer pos inst mw inner c w = limiter_layer pos inst mw inner' c w.
Proof. exact limiter_wait_interrupted. Qed.
Print Assumptions C08_limiter_wait_interrupted.

(* a bulkhead turns a cancelled execution away -- on arrival or out of its wait -- with the error of the cancellation result
   (ErrExecutionCanceled for ExecutionResult.Cancel(), ErrExceeded for a Timeout, else the context's error), whatever is
   inside it *)
Theorem C08_bulkhead_cancelled_reports_cause : forall pos inst mw (inner inner' : layer) c w,
  (forall cr e, is_canceled w c = Some cr -> pr_err cr = Some e ->
     bulkhead_layer pos inst mw inner c w = (failure_result e, w))
  /\ (copy_err w c = None -> fst (nth inst (w_bulkheads w) (0, 0)) <= snd (nth inst (w_bulkheads w) (0, 0)) -> mw <> 0 ->
      fst (wait w mw (Some c)) = true ->
      let w1 := snd (wait w mw (Some c)) in
      bulkhead_layer pos inst mw inner c w = bulkhead_layer pos inst mw inner' c w
      /\ forall cr e, is_canceled w1 c = Some cr -> pr_err cr = Some e ->
           bulkhead_layer pos inst mw inner c w = (failure_result e, w1)).
Proof. exact bulkhead_cancelled_reports_cause. Qed.
Print Assumptions C08_bulkhead_cancelled_reports_cause.

(* Finding F16 (repaired in /repo by a fix: commit; the bulkhead reported the context's error): the context's error is not the cause; it is context.Canceled when the execution was cancelled through
   its ExecutionResult *)
Theorem C08_bulkhead_reported_context_error_before_fix :
  exists w c, copy_err w c = Some ECtxCanceled /\ cancel_error w c = EExecCanceled.
Proof. exact bulkhead_reported_context_error_before_fix. Qed.
Print Assumptions C08_bulkhead_reported_context_error_before_fix.
