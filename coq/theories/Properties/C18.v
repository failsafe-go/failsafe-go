(* C18: HTTP and gRPC adapters are transparent and replay requests faithfully (logic of the adapters;
   net/http and gRPC transports are outside the model). *)
From FS Require Import Model.Adapter Proofs.AdapterProofs Corr.C18.

Theorem C18_http_retryable_documented : forall a,
  http_retryable a = true <->
  match a with
  | AErr e => e <> HUnsupportedScheme /\ e <> HCertNotTrusted /\ e <> HStoppedAfterRedirects /\ e <> HUnknownAuthority
  | AResp r => rs_status r = 429 \/ (500 <= rs_status r /\ rs_status r <> 501)
  end.
Proof. exact http_retryable_documented. Qed.
Print Assumptions C18_http_retryable_documented.

Theorem C18_grpc_retryable_documented : forall code,
  grpc_retryable code = true <-> (code = Some 14 \/ code = Some 4 \/ code = Some 8).
Proof. exact grpc_retryable_documented. Qed.
Print Assumptions C18_grpc_retryable_documented.

Theorem C18_retry_after_respected : forall r s,
  (rs_status r = 429 \/ rs_status r = 503) -> rs_retry_after r = Some s -> 0 <= s ->
  http_delay (AResp r) = s * 1000000000.
Proof. exact retry_after_respected. Qed.
Print Assumptions C18_retry_after_respected.

(* for every script of server behaviours and every retry budget: the attempt whose result is returned is the last one made *)
Theorem C18_returned_is_last_attempt : forall script n idx r k ds,
  http_retry script n idx = (Some r, k, ds) -> k = S r.
Proof. exact returned_is_last_attempt. Qed.
Print Assumptions C18_returned_is_last_attempt.

(* the returned attempt is not retryable (or is the abort error), and every attempt before it was retryable *)
Theorem C18_retried_exactly_when_retryable : forall script n idx r k ds,
  http_retry script n idx = (Some r, k, ds) ->
  exists a, nth_error script (r - idx) = Some a /\ (http_retryable a = false \/ http_abort a = true)
  /\ forall j, (j < r - idx)%nat -> exists b, nth_error script j = Some b /\ http_retryable b = true /\ http_abort b = false.
Proof. exact retried_exactly_when_retryable. Qed.
Print Assumptions C18_retried_exactly_when_retryable.

(* whatever delay or backoff the retry policy is configured with besides the Retry-After delay function (WithDelay base,
   WithBackoff base maxd), for every script, budget and backoff state: the wait scheduled after an attempt is at least
   the Retry-After that attempt's 429 / 503 response carried, and never negative *)
Theorem C18_retry_after_waited_under_any_delay_configuration : forall base maxd, 0 <= base -> 0 <= maxd ->
  forall script last n idx r k ds, 0 <= last ->
  http_retry_b base maxd last script n idx = (r, k, ds) ->
  forall j d, nth_error ds j = Some d ->
  exists a, nth_error script j = Some a /\ retry_after_floor a <= d /\ 0 <= d.
Proof. exact retry_after_waited. Qed.
Print Assumptions C18_retry_after_waited_under_any_delay_configuration.

(* a configured delay or backoff changes neither which attempts are made nor which one is returned *)
Theorem C18_delay_configuration_does_not_change_attempts : forall base maxd script last n idx,
  fst (http_retry_b base maxd last script n idx) = fst (http_retry script n idx).
Proof. exact http_retry_b_same_attempts. Qed.
Print Assumptions C18_delay_configuration_does_not_change_attempts.

(* with no delay configured (base 0) the policy is the default one *)
Theorem C18_no_delay_configuration_is_default_policy : forall script last n idx,
  http_retry_b 0 0 last script n idx = http_retry script n idx.
Proof. exact http_retry_b_default. Qed.
Print Assumptions C18_no_delay_configuration_is_default_policy.

(* every attempt of a sequential retry sequence carries the same body *)
Theorem C18_every_attempt_same_body : forall b n x, In x (bodies_of_attempts b n) -> x = attempt_body b.
Proof. exact every_attempt_same_body. Qed.
Print Assumptions C18_every_attempt_same_body.

(* that body is the complete original one when the caller hands over an unread body of a supported kind *)
Theorem C18_unread_body_is_complete : forall b,
  b_offset b = 0%nat -> b_kind b <> BUnsupported -> b_kind b <> BNone -> attempt_body b = Some (b_content b).
Proof. exact unread_body_is_complete. Qed.
Print Assumptions C18_unread_body_is_complete.

(* the context each attempt runs under carries the caller's values and deadline and is done when the caller's is *)
Theorem C18_attempt_context_carries_caller : forall caller exec,
  c_background caller = false ->
  let m := merge_contexts caller exec in
  c_values m = c_values caller /\ c_deadline m = c_deadline caller
  /\ (forall t, c_done_at caller = Some t -> exists t', c_done_at m = Some t' /\ t' <= t).
Proof. exact attempt_context_carries_caller. Qed.
Print Assumptions C18_attempt_context_carries_caller.

Theorem C18_attempt_context_dropped_caller_before_fix :
  exists caller exec, c_background caller = false /\ c_values caller <> [] /\
    c_values (merge_contexts_prefix caller exec) = [] /\ c_deadline (merge_contexts_prefix caller exec) = None
    /\ c_deadline caller <> None.
Proof. exact attempt_context_dropped_caller_before_fix. Qed.
Print Assumptions C18_attempt_context_dropped_caller_before_fix.
(* recorded finding F6b (not repaired): the returned body is unreadable when both contexts are non-background, because
   doRequest cancels the per-attempt context when the attempt function returns; see known_findings.txt *)
