(* C02: Retry: bounded attempts, stops at first success or abort, correct final result. *)
From FS Require Import Model.Exec Proofs.ExecProofs Proofs.ExecRetryBudget Corr.C02.

(* for an arbitrary wrapped layer that does not touch this retry layer's own per-execution ledger:
   the layer invokes what it wraps at most maxRetries + 1 times per execution (the ghost counter
   returned by retry_loop), counting failures already charged to the execution *)
Theorem C02_retry_invocation_bound : forall cfg pos (inner : layer),
  (forall c w, get_rstate (snd (inner c w)) pos = get_rstate w pos) ->
  0 <= r_max_retries cfg ->
  forall fuel c w,
  rs_exceeded (get_rstate w pos) = false -> 0 <= rs_failed (get_rstate w pos) <= r_max_retries cfg ->
  Z.of_nat (snd (retry_loop fuel cfg pos inner c w)) <= r_max_retries cfg - rs_failed (get_rstate w pos) + 1.
Proof. intros cfg pos inner Hframe Hmax fuel c w _ [_ Hf]. exact (retry_invocations cfg pos inner Hframe Hmax fuel c w Hf). Qed.
Print Assumptions C02_retry_invocation_bound.

(* never re-invoked after a success: the stopping outcome is returned unchanged *)
Theorem C02_retry_stops_on_success : forall cfg pos (inner : layer) fuel c w,
  let r := fst (inner c w) in let w1 := snd (inner c w) in
  is_canceled w1 c = None -> rs_exceeded (get_rstate w1 pos) = false ->
  is_failure (r_fpol cfg) (pr_out r) = false ->
  retry_loop (S fuel) cfg pos inner c w =
    (with_done r true true, ev_with_result w1 c KPolSuccess pos (with_done r true true), 1%nat).
Proof. exact retry_stops_on_success. Qed.
Print Assumptions C02_retry_stops_on_success.

(* never re-invoked after an abort-matching outcome *)
Theorem C02_retry_stops_on_abort : forall cfg pos (inner : layer) fuel c w,
  let r := fst (inner c w) in let w1 := snd (inner c w) in
  is_canceled w1 c = None -> rs_exceeded (get_rstate w1 pos) = false ->
  is_failure (r_fpol cfg) (pr_out r) = true -> is_abortable (r_abort cfg) (pr_out r) = true ->
  snd (retry_loop (S fuel) cfg pos inner c w) = 1%nat.
Proof. exact retry_stops_on_abort. Qed.
Print Assumptions C02_retry_stops_on_abort.

(* one handled failure: the ledger is charged by one; the budget is exhausted exactly when
   failures > maxRetries or the max duration has elapsed, and then the layer is done and returns
   ExceededError{last result, last error} (or the last outcome itself with ReturnLastFailure) *)
Theorem C02_retry_on_failure : forall cfg pos c r w,
  let w0 := pause (ev_with_result w c KPolFailure pos r) (r_lsn_dur cfg) in   (* OnFailure logged, its listener has returned *)
  let rs := get_rstate w0 pos in
  let failed := rs_failed rs + 1 in
  let exceeded := (negb (r_max_retries cfg =? -1) && (r_max_retries cfg <? failed))
                  || (negb (r_max_duration cfg =? 0) && (r_max_duration cfg <? w_now w0 - w_start w0)) in
  get_rstate (snd (retry_on_failure cfg pos c r w)) pos = {| rs_failed := failed; rs_exceeded := exceeded |}
  /\ (exceeded = true -> pr_done (fst (retry_on_failure cfg pos c r w)) = true)
  /\ (exceeded = true -> r_return_last cfg = false ->
        fst (retry_on_failure cfg pos c r w) = failure_result (EExceeded (pr_res r) (pr_err r)))
  /\ (exceeded = true -> r_return_last cfg = true -> pr_out (fst (retry_on_failure cfg pos c r w)) = pr_out r)
  /\ (is_abortable (r_abort cfg) (pr_out r) = true -> pr_done (fst (retry_on_failure cfg pos c r w)) = true).
Proof. exact retry_on_failure_rstate. Qed.
Print Assumptions C02_retry_on_failure.

(* the budget belongs to one execution: every execution starts from an empty ledger *)
Theorem C02_retry_budget_is_per_execution : forall now ext key b l k c script pos,
  get_rstate (fresh_world now ext key b l k c script) pos = {| rs_failed := 0; rs_exceeded := false |}.
Proof.
  intros now ext key b l k c script pos. unfold fresh_world. destruct ext as [[t e]|]; [|reflexivity]. destruct (t <=? now); [|reflexivity].
  rewrite (get_rstate_ext (fresh_world0 now (Some (t, e)) key b l k c script) _ pos) by (apply (fire_ext_same w_retry); reflexivity). reflexivity.
Qed.
Print Assumptions C02_retry_budget_is_per_execution.

(* over whole executions: in the complete log of any execution through any stack (any script, any cancellation, any instances),
   the retry policy at position p0 -- whatever policies are around it and re-enter it, whatever policies are inside it --
   starts at most maxRetries retries: the number of its OnRetry events is within its bound *)
Theorem C02_retries_within_budget_in_any_stack : forall fuel stack now ext key b l k c script p0 cfg0,
  nth_error stack p0 = Some (PRetry cfg0) -> 0 <= r_max_retries cfg0 ->
  Z.of_nat (length (filter (fun e => kind_is KRetry e && Nat.eqb (e_pos e) p0)
                           (w_trace (drain (snd (execute fuel stack (fresh_world now ext key b l k c script)))))))
  <= r_max_retries cfg0.
Proof. exact retries_within_budget. Qed.
Print Assumptions C02_retries_within_budget_in_any_stack.

(* used by the correspondence: the executable form (retries_bounded, evaluated on the implementation's logs) accepts every
   model log, whichever completion and breaker listeners are registered *)
Theorem C02_retries_checker_accepts_model : forall fuel stack now ext key b l k c script lsn mask q o,
  q_stack q = stack ->
  x_events o = filter (blsn_keeps mask) (filter (lsn_keeps lsn)
     (rev (w_trace (drain (snd (execute fuel stack (fresh_world now ext key b l k c script))))))) ->
  retries_bounded q o = true.
Proof. exact retries_checker_accepts_model. Qed.
Print Assumptions C02_retries_checker_accepts_model.
