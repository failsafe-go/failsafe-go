(* C09: Hedge: bounded attempts, spaced by the delay, one winner, losers cancelled.
   [hedge_run] is the virtual-time mirror of hedgepolicy/hedgeexecutor.go (Model/Hedge.v). *)
From FS Require Import Model.Hedge Proofs.HedgeProofs Corr.C09.
From FS Require Import Model.Exec Proofs.ExecHedgeProofs Proofs.ExecHedgeWinner Proofs.ExecHedgeLosers Proofs.ExecWF Corr.C09x.

(* For every maxHedges, delay function, cancel conditions, assignment of durations/outcomes/cooperativeness
   to the attempts and cancellation instant of the caller's context: at most maxHedges+1 attempts are
   started; attempt k starts exactly at t0 + the first k hedge delays (never earlier); when a result is
   accepted its producer is a started attempt, every other started attempt is cancelled and the winner is not. *)
Theorem C09_bounded_spaced_one_winner : forall c atts ext t0, good c t0 (hedge_run c atts ext t0).
Proof. exact hedge_run_good. Qed.
Print Assumptions C09_bounded_spaced_one_winner.

Theorem C09_attempt_bound : forall c atts ext t0,
  (length (ho_starts (hedge_run c atts ext t0)) <= S (h_max c))%nat.
Proof. intros. apply (hedge_run_good c atts ext t0). Qed.
Print Assumptions C09_attempt_bound.

Theorem C09_spacing : forall c atts ext t0 i,
  (i < length (ho_starts (hedge_run c atts ext t0)))%nat ->
  nth i (ho_starts (hedge_run c atts ext t0)) 0 = sched c t0 i.
Proof. intros c atts ext t0. apply (hedge_run_good c atts ext t0). Qed.
Print Assumptions C09_spacing.

(* a result matching the cancel conditions is returned as soon as it is produced; otherwise the
   result is delivered only when all maxHedges+1 attempts have finished: kernel-evaluated instances
   (the general statement is carried by the definition of [settle] in Model/Hedge.v and the correspondence) *)
Example C09_cancel_match_returns_immediately :
  let c := {| h_max := 2; h_delays := [1000]; h_cancel := build_hedge_cancel [AbortOnResult 7]; h_fixed := true |} in
  let atts := [ {| a_dur := 5000; a_out := (1, None); a_coop := true |}; {| a_dur := 700; a_out := (7, None); a_coop := true |};
                {| a_dur := 9000; a_out := (2, None); a_coop := true |} ] in
  let o := hedge_run c atts None 0 in
  ho_out o = (7, None) /\ ho_end o = 1700 /\ ho_starts o = [0; 1000] /\ ho_cancelled o = [true; false].
Proof. vm_compute. auto. Qed.

Example C09_no_match_waits_for_all :
  let c := {| h_max := 2; h_delays := [1000]; h_cancel := build_hedge_cancel [AbortOnResult 7]; h_fixed := true |} in
  let atts := [ {| a_dur := 5000; a_out := (1, None); a_coop := false |}; {| a_dur := 700; a_out := (3, None); a_coop := false |};
                {| a_dur := 9000; a_out := (2, None); a_coop := false |} ] in
  let o := hedge_run c atts None 0 in
  ho_out o = (2, None) /\ ho_end o = 11000 /\ ho_starts o = [0; 1000; 2000] /\ ho_cancelled o = [true; true; false].
Proof. vm_compute. auto. Qed.

(* Finding F9 (repaired in /repo by a fix: commit): with the loop as it was ([h_fixed := false]) a cancelled hedge waits out the hedge delay *)
Theorem C09_waited_out_delay_before_fix :
  let atts := [ {| a_dur := 7200000000000; a_out := (0, None); a_coop := true |}; {| a_dur := 5; a_out := (1, None); a_coop := true |} ] in
  let mk f := {| h_max := 1; h_delays := [3600000000000]; h_cancel := build_hedge_cancel [AbortOnResult 42]; h_fixed := f |} in
  ho_end (hedge_run (mk false) atts (Some (1000000000, ECtxCanceled)) 0) = 3600000000000 /\
  ho_end (hedge_run (mk true) atts (Some (1000000000, ECtxCanceled)) 0) = 1000000000.
Proof. vm_compute. auto. Qed.
Print Assumptions C09_waited_out_delay_before_fix.

(* placement inside other policies: the hedge layer of Model/Exec.v (hedge policy directly around the function, ANY
   enclosing stack, script, pending timeouts / cancellations and attempts of earlier runs still in the background) *)

(* one hedged run starts at most maxHedges hedges (the Hedges counter, which every observer reads, grows by at most that) *)
Theorem C09_in_stack_hedges_bounded : forall pos total cfg c w,
  w_hedges (snd (hedge_layer pos total cfg c w)) <= w_hedges w + Z.of_nat (hg_max cfg).
Proof. exact hedge_layer_hedges_bound. Qed.
Print Assumptions C09_in_stack_hedges_bounded.

(* at most maxHedges + 1 attempts are started by one run ... *)
Theorem C09_in_stack_attempts_bounded : forall cfg pos total fuel c started w,
  (length (snd (hedge_loop fuel cfg pos total c 0 started w)) <= S (hg_max cfg))%nat.
Proof. intros. pose proof (hedge_loop_attempts_bound cfg pos total fuel c 0 started w ltac:(lia)). lia. Qed.
Print Assumptions C09_in_stack_attempts_bounded.

(* ... and attempt i of the run is started no earlier than i hedge delays after the run began *)
Theorem C09_in_stack_spacing : forall cfg pos total, 0 <= hg_delay cfg ->
  forall fuel c started w i t,
  nth_error (snd (hedge_loop fuel cfg pos total c 0 started w)) i = Some t -> w_now w + Z.of_nat i * hg_delay cfg <= t.
Proof. intros cfg pos total Hd fuel c started w. exact (hedge_loop_spacing cfg pos total Hd fuel c 0 started w). Qed.
Print Assumptions C09_in_stack_spacing.

(* the caller of a hedged run -- whatever policy sits around it -- receives a result actually produced by one of the
   attempts: unless the run is cancelled from outside (then it reports that cancellation) or is schedule-dependent, the
   result handed on is the outcome of a function return recorded during this run ([pre] is what the run added to the
   trace), and that outcome matches the cancel conditions or was taken only after maxHedges+1 returns *)
Theorem C09_in_stack_result_produced_by_an_attempt : forall pos total cfg c w,
  let r := fst (hedge_layer pos total cfg c w) in
  let w' := snd (hedge_layer pos total cfg c w) in
  w_oof w' = true
  \/ is_canceled w' c = Some r
  \/ exists pre o q, keys w' = pre ++ keys w /\ r = all_true o /\ In (KFnEnd, q, o) pre
       /\ (is_abortable (hg_cancel cfg) o = true \/ (S (hg_max cfg) <= cntE pre)%nat).
Proof. exact hedge_layer_winner. Qed.
Print Assumptions C09_in_stack_result_produced_by_an_attempt.

(* at the moment the hedged run hands on an accepted result, every other attempt it started has been cancelled and the
   winning attempt has not: unless the run is schedule-dependent or cancelled from outside, exactly one of the execution
   copies the run created ([more]: copy and cancel scope of every attempt, in starting order) has a live context.
   The premises say the world is well formed: the caller's scope exists, the execution's copy and the scopes of its chain
   exist, attempts of earlier runs carry earlier run numbers; the next theorem derives them from the invariant [Wf] *)
Theorem C09_in_stack_losers_cancelled_winner_not : forall pos total cfg c w,
  (1 <= length (w_scopes w))%nat -> (c < length (w_copies w))%nat ->
  (forall s, In s (cp_chain (get_copy w c)) -> (s < length (w_scopes w))%nat) ->
  (forall b, In b (w_bg w) -> (bg_grp b <= hs_grp (w_hs w))%nat) ->
  let w' := snd (hedge_layer pos total cfg c w) in
  w_oof w' = true
  \/ is_canceled w' c <> None
  \/ exists (more : list (nat * nat)) idx cw sw, nth_error more idx = Some (cw, sw)
       /\ copy_err w' cw = None
       /\ forall j c' s', nth_error more j = Some (c', s') -> j <> idx -> copy_err w' c' <> None.
Proof. exact hedge_layer_one_left. Qed.
Print Assumptions C09_in_stack_losers_cancelled_winner_not.

(* the same from well-formedness alone: [Wf] (Proofs/ExecWF.v) is established by [fresh_world] and preserved by every layer
   of every stack -- each layer hands a well-formed world and an existing execution copy to the layer inside it, the hedge
   layer being the innermost *)
Theorem C09_in_stack_losers_cancelled_winner_not_wf : forall pos total cfg c w, okc c w -> Wf w ->
  let w' := snd (hedge_layer pos total cfg c w) in
  w_oof w' = true
  \/ is_canceled w' c <> None
  \/ exists (more : list (nat * nat)) idx cw sw, nth_error more idx = Some (cw, sw)
       /\ copy_err w' cw = None
       /\ forall j c' s', nth_error more j = Some (c', s') -> j <> idx -> copy_err w' c' <> None.
Proof. exact hedge_layer_one_left_wf. Qed.
Print Assumptions C09_in_stack_losers_cancelled_winner_not_wf.

Theorem C09_fresh_world_well_formed : forall now ext key b l k c script,
  Wf (fresh_world now ext key b l k c script) /\ okc 0 (fresh_world now ext key b l k c script).
Proof. exact fresh_world_Wf. Qed.
Print Assumptions C09_fresh_world_well_formed.

Theorem C09_every_layer_preserves_well_formedness : forall fuel stack pos total c w, okc c w -> Wf w ->
  Wf (snd (compose fuel pos stack total c w)) /\ (length (w_copies w) <= length (w_copies (snd (compose fuel pos stack total c w))))%nat.
Proof. intros fuel stack pos total c w Hc H. exact (compose_pres fuel stack pos total c w Hc H). Qed.
Print Assumptions C09_every_layer_preserves_well_formedness.

Example C09_in_stack_premises_hold_for_a_fresh_execution :
  let w := fresh_world 0 None CKNone [] [] [] [] [] in
  (1 <= length (w_scopes w))%nat /\ (0 < length (w_copies w))%nat
  /\ (forall s, In s (cp_chain (get_copy w 0)) -> (s < length (w_scopes w))%nat)
  /\ (forall b, In b (w_bg w) -> (bg_grp b <= hs_grp (w_hs w))%nat).
Proof. cbn. split; [lia|]. split; [lia|]. split; [intros s [<-|[]]; lia|intros b []]. Qed.

(* premises are satisfiable: a hedge policy alone, first attempt slow, the hedge wins *)
Example C09_in_stack_example :
  let hc := {| hg_max := 1; hg_delay := 1000; hg_cancel := build_hedge_cancel [] |} in
  let script := [ {| fs_out := (1, None); fs_dur := 5000; fs_coop := None; fs_lag := 0 |};
                  {| fs_out := (2, None); fs_dur := 700; fs_coop := None; fs_lag := 0 |} ] in
  let w := fresh_world 0 None CKNone [] [] [] [] script in
  let '(r, w1, ts) := hedge_loop 3 hc 0 1 0 0 [] w in
  ts = [0; 1000] /\ w_hedges w1 = 1 /\ w_attempts w1 = 2
  (* the run is neither schedule-dependent nor cancelled, and hands on the hedge's result *)
  /\ w_oof w1 = false /\ is_canceled w1 0 = None /\ pr_res r = 2.
Proof. vm_compute. auto 10. Qed.
