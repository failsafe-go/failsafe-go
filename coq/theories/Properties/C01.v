(* C01: Policies compose as nested wrappers, in declaration order.
   [compose]/[execute] are the Gallina mirror of executor.go + policy/policyexecutor.go + every policy
   executor; each theorem is for an ARBITRARY inner layer, hence for every composition below it. *)
From FS Require Import Proofs.ExecFlagsProofs.
From FS Require Import Model.Exec Proofs.ExecProofs Proofs.ExecStats Corr.C01.

(* the executor's reverse loop is the right-nested application P1(P2(...Pn(fn))) in declaration order *)
Theorem C01_compose_is_right_nesting : forall fuel pos p rest total,
  compose fuel pos (p :: rest) total = apply_policy fuel pos total p (compose fuel (S pos) rest total).
Proof. reflexivity. Qed.
Print Assumptions C01_compose_is_right_nesting.

(* the caller receives precisely the outermost layer's result; the completion verdict is its SuccessAll;
   one success-or-failure event and one done event, carrying that result, close the log *)
Theorem C01_caller_gets_outermost_result_and_verdict : forall fuel stack w,
  let '(r, w1) := compose fuel 0 stack (length stack) 0%nat w in
  fst (execute fuel stack w) = r /\
  exists e1 e2, w_trace (snd (execute fuel stack w)) = e2 :: e1 :: w_trace w1
    /\ e_kind e2 = KExecDone /\ e_kind e1 = (if pr_all r then KExecSuccess else KExecFailure)
    /\ e_out e1 = pr_out r /\ e_out e2 = pr_out r.
Proof. exact execute_outermost_and_verdict. Qed.
Print Assumptions C01_caller_gets_outermost_result_and_verdict.

(* the function (and everything inside) runs only when the enclosing policy admits the attempt:
   a rejecting breaker / rate limiter / full bulkhead that does not wait / cache hit yields a result
   that does not depend on what it wraps *)
Theorem C01_breaker_rejection_skips_inner : forall pos inst (inner inner' : layer) c w,
  let '(cfg, s) := nth inst (w_breakers w) (bcfg_default, cb_init bcfg_default) in
  fst (fst (try_acquire conc_impl cfg s (w_now w))) = false ->
  breaker_layer pos inst inner c w = breaker_layer pos inst inner' c w
  /\ pr_err (fst (breaker_layer pos inst inner c w)) = Some EOpen.
Proof. exact breaker_rejection_skips_inner. Qed.
Print Assumptions C01_breaker_rejection_skips_inner.

Theorem C01_limiter_rejection_skips_inner : forall pos inst mw (inner inner' : layer) c w,
  let '(cfg, base, s) := nth inst (w_limiters w) (Smooth 1, 0, SSmooth 0) in
  fst (lim_acquire cfg s (w_now w - base) 1 mw) = -1 ->
  limiter_layer pos inst mw inner c w = limiter_layer pos inst mw inner' c w
  /\ pr_err (fst (limiter_layer pos inst mw inner c w)) = Some ERate.
Proof. exact limiter_rejection_skips_inner. Qed.
Print Assumptions C01_limiter_rejection_skips_inner.

Theorem C01_bulkhead_full_skips_inner : forall pos inst (inner inner' : layer) c w,
  let '(cap, held) := nth inst (w_bulkheads w) (0, 0) in
  cap <= held -> copy_err w c = None ->
  bulkhead_layer pos inst 0 inner c w = bulkhead_layer pos inst 0 inner' c w
  /\ pr_err (fst (bulkhead_layer pos inst 0 inner c w)) = Some EFull.
Proof. exact bulkhead_full_skips_inner. Qed.
Print Assumptions C01_bulkhead_full_skips_inner.

Theorem C01_cache_hit_skips_inner : forall pos inst cfg (inner : layer) c w v,
  cache_key w cfg <> 0 -> cache_get (nth inst (w_caches w) []) (cache_key w cfg) = Some v ->
  cache_layer pos inst cfg inner c w = (all_true (v, None), emit w KCacheHit pos (v, None) 0).
Proof. exact cache_hit_skips_inner. Qed.
Print Assumptions C01_cache_hit_skips_inner.

(* partial: the refinement of the flag algebra (Done/Success/SuccessAll) to flag-free per-policy
   documented behaviours (DESIGN.md section 4, exec_refines_nesting) is not proved; the per-layer
   theorems of C02, C10, C11 and the correspondence on complete logs stand in for it. *)

(* "Each policy handles only what the policy inside it returned": between two layers only the result, the error and the
   SuccessAll verdict carry information.  Overwriting the Done and Success flags arbitrarily ([g] keeps result, error
   and SuccessAll) at EVERY layer boundary of ANY stack changes nothing: the same world (complete log of every listener
   and of the function, counters, policy instances, clock), the same returned result and error, the same verdict. *)
Theorem C01_flags_do_not_leak_between_layers : forall g, (forall r, same_core (g r) r) ->
  forall fuel stack w,
  same_core (fst (execute_g g fuel stack w)) (fst (execute fuel stack w))
  /\ snd (execute_g g fuel stack w) = snd (execute fuel stack w).
Proof. exact execution_determined_by_result_error_verdict. Qed.
Print Assumptions C01_flags_do_not_leak_between_layers.

Theorem C01_every_layer_respects_inner_equivalence : forall fuel pos total p inner inner',
  layer_eqv inner inner' -> layer_eqv (apply_policy fuel pos total p inner) (apply_policy fuel pos total p inner').
Proof. exact apply_policy_eqv. Qed.
Print Assumptions C01_every_layer_respects_inner_equivalence.

(* a garbling that does change flags exists (the statement is not about the identity only) *)
Example C01_garbling_is_not_trivial :
  let g := fun r => {| pr_res := pr_res r; pr_err := pr_err r; pr_done := negb (pr_done r); pr_succ := negb (pr_succ r); pr_all := pr_all r |} in
  (forall r, same_core (g r) r) /\ g (failure_result EOpen) <> failure_result EOpen.
Proof. split; [intros r; repeat split|discriminate]. Qed.
