(* C14: Shared policies and executors are safe for concurrent use (partial: see MANIFEST). *)
From FS Require Import Model.Lockset Proofs.LocksetProofs Corr.C14.

(* generic: in EVERY trace that respects mutual exclusion and the locking discipline (each access to a location
   is made while holding the location's guard), any two accesses to one location by different threads are
   separated by "the first thread unlocks the guard, the second locks it": ordered by happens-before, no race *)
Theorem C14_disciplined_accesses_are_ordered : forall g pre t1 x w1 mid t2 w2 rest,
  disciplined_trace g (pre ++ Acc t1 x w1 :: mid ++ Acc t2 x w2 :: rest) -> t1 <> t2 ->
  rel_then_acq t1 t2 (g x) mid.
Proof. exact disciplined_accesses_are_ordered. Qed.
Print Assumptions C14_disciplined_accesses_are_ordered.

(* the obligation discharged on every run against the table [tbl] generated from the current sources:
   [disciplined allowed tbl = true], evaluated by the kernel (Corr/C14.v, CaseTable).
   Non-vacuity: a table with an unguarded row outside the recorded findings is rejected. *)
Example C14_obligation_rejects_unguarded_state :
  disciplined allowed [ {| r_struct := "circuitBreaker"; r_field := "state"; r_prot := PUnguarded; r_unlocked := ["RemainingDelay"] |} ]%string = false.
Proof. reflexivity. Qed.
