(* C17: Execution statistics count attempts, executions, retries and hedges exactly. *)
From FS Require Import Model.Exec Proofs.ExecProofs Proofs.ExecStats Proofs.ExecCheckerProofs Proofs.ExecTimes Corr.C17.

(* In the complete log of any execution through any stack of retry, breaker, rate limiter, bulkhead,
   timeout, fallback, cache and (as the innermost policy) hedge policies, with any script, cancellation
   pattern and instance state, EVERY observation point (function entry/exit, every listener incl.
   OnHedge, completion events, and what hedge attempts that are still running when the execution
   returns log afterwards) reports Attempts = 1 + Retries + Hedges, Retries = retries started so far,
   Hedges = hedges started so far, Executions = function invocations completed so far (rejected
   attempts never count as executions; overlapping hedge attempts count when they return), and time
   stamps never decrease. *)
Theorem C17_statistics_exact_at_every_observation_point : forall fuel stack now ext key b l k c script,
  trace_ok (w_trace (drain (snd (execute fuel stack (fresh_world now ext key b l k c script))))).
Proof. exact execution_statistics_exact. Qed.
Print Assumptions C17_statistics_exact_at_every_observation_point.

Theorem C17_every_composition_preserves_the_invariant : forall fuel stack pos total c w,
  Tr w -> Tr (snd (compose fuel pos stack total c w)).
Proof. intros fuel stack pos total. exact (compose_preserves fuel stack pos total). Qed.
Print Assumptions C17_every_composition_preserves_the_invariant.

(* used by the correspondence: the executable checker applied to implementation logs accepts every model log *)
Theorem C17_checker_accepts_model : forall fuel stack now ext key b l k c script,
  let evs := rev (w_trace (drain (snd (execute fuel stack (fresh_world now ext key b l k c script))))) in
  stats_ok [] 0 0 0 (match evs with e :: _ => e_time e | [] => 0 end) evs = true.
Proof. exact c17_checker_accepts_model. Qed.
Print Assumptions C17_checker_accepts_model.

(* Start times: in the complete log of any execution through any stack (incl. what hedge attempts still running when
   the execution returns log afterwards) every observer is shown StartTime = the instant the execution began (never
   later than the observation), and every AttemptStartTime it can read lies between that instant and the instant of
   the observation -- so ElapsedTime and ElapsedAttemptTime are never negative and ElapsedAttemptTime <= ElapsedTime. *)
Theorem C17_start_times_exact : forall fuel stack now ext key b l k c script,
  Forall (fun e => e_start e = now /\ now <= e_time e /\ (e_astart e = -1 \/ now <= e_astart e <= e_time e))
         (w_trace (drain (snd (execute fuel stack (fresh_world now ext key b l k c script))))).
Proof. exact start_times_exact. Qed.
Print Assumptions C17_start_times_exact.

(* the test that Corr/ExecCheckers.v [times_ok] applies to the entries of an implementation log (the breaker's excepted)
   holds of every entry of a model log *)
Theorem C17_start_times_checker_accepts_model : forall fuel stack now ext key b l k c script,
  forallb (fun e => (e_start e =? now) && ((e_astart e =? -1) || ((now <=? e_astart e) && (e_astart e <=? e_time e))))
          (rev (w_trace (drain (snd (execute fuel stack (fresh_world now ext key b l k c script)))))) = true.
Proof. exact start_times_checker_accepts_model. Qed.
Print Assumptions C17_start_times_checker_accepts_model.
