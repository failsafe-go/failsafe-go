(* C19: Finished executions leave no goroutines or connections behind (partial: see MANIFEST). *)
From FS Require Import Model.Ledger Proofs.Trace Proofs.LedgerProofs Corr.C19.

(* hedge attempts: with a result channel buffered for one value or more (the code's: one), in EVERY interleaving of any
   number of finishing attempts with the main loop's receives - including a main loop that has already returned and never
   receives - no attempt goroutine blocks on its send, so each one ends when its inner call returns *)
Theorem C19_hedge_send_never_blocks : forall cap tr, (1 <= cap)%nat -> hs_blocked (h_run cap tr) = 0%nat.
Proof. exact hedge_send_never_blocks. Qed.
Print Assumptions C19_hedge_send_never_blocks.

(* the buffer is necessary: with an unbuffered channel a goroutine is left behind once the main loop has stopped listening *)
Theorem C19_unbuffered_channel_leaks : hs_blocked (h_run 0 [HFinish true]) = 1%nat.
Proof. exact unbuffered_channel_leaks. Qed.
Print Assumptions C19_unbuffered_channel_leaks.

(* the same hand-off, for every buffer size and every interleaving: exactly one finishing attempt wins the
   compare-and-swap on resultSent (and sends) when some attempt has a result to hand on, none otherwise; so at most one
   value ever travels through the channel and no second sender can be left waiting behind the first *)
Theorem C19_hedge_one_winner : forall cap tr, h_wins (h_init cap) tr = (if existsb wants tr then 1 else 0)%nat.
Proof. exact hedge_one_winner. Qed.
Print Assumptions C19_hedge_one_winner.

Theorem C19_hedge_sent_iff_winner : forall cap tr, hs_sent (h_run cap tr) = existsb wants tr.
Proof. intros cap tr. exact (fold_left_ors _ _ _ h_step_sent tr (h_init cap)). Qed.
Print Assumptions C19_hedge_sent_iff_winner.

(* resultCount counts every finished attempt exactly once (no attempt goroutine ends uncounted or is counted twice) *)
Theorem C19_hedge_count_exact : forall cap tr, hs_count (h_run cap tr) = List.length (filter is_finish tr).
Proof. intros cap tr. apply h_run_count. Qed.
Print Assumptions C19_hedge_count_exact.

(* with a buffer of one or more, the channel holds at most the winner's result and nothing before somebody has won *)
Theorem C19_hedge_channel_bound : forall cap tr, (1 <= cap)%nat ->
  (hs_chan (h_run cap tr) <= 1)%nat /\ (hs_sent (h_run cap tr) = false -> hs_chan (h_run cap tr) = 0%nat).
Proof. exact hedge_channel_bound. Qed.
Print Assumptions C19_hedge_channel_bound.

Example C19_one_winner_nonvacuous :
  h_wins (h_init 1) [HFinish false; HFinish true; HRecv; HFinish true] = 1%nat /\
  hs_count (h_run 1 [HFinish false; HFinish true; HRecv; HFinish true]) = 3%nat.
Proof. exact one_winner_nonvacuous. Qed.

(* obligation discharged on every run: every go statement, timer, AfterFunc and derived context found in the
   library's sources of this run is one of the sites listed in Model/Ledger.v (each with its exit argument);
   evaluated by the kernel on the regenerated list (Corr/C18.v, CaseSites).  Non-vacuity: *)
Example C19_new_site_is_rejected : sites_known [("retrypolicy/retryexecutor.go", "Apply", "go")]%string = false.
Proof. reflexivity. Qed.
