(* C06: Bulkhead never exceeds its concurrency limit and never loses permits. *)
From FS Require Import Model.Bulkhead Proofs.BulkheadProofs Model.Exec Proofs.ExecProofs Corr.C06.

(* every interleaving (any length, any number of executions and standalone callers, any timing of context
   cancellations and max-wait timers): executions holding a permit + standalone holders never exceed
   maxConcurrency, and the channel occupancy is exactly that number *)
Theorem C06_bulkhead_never_exceeds : forall cap mw now n tr, 0 <= cap ->
  let k := krun (kinit cap mw now n) tr in holding k + k_ext k <= cap /\ k_held k = holding k + k_ext k.
Proof. exact bulkhead_never_exceeds. Qed.
Print Assumptions C06_bulkhead_never_exceeds.

(* no permit is ever lost: once nobody holds one, all maxConcurrency permits are available again *)
Theorem C06_all_permits_back : forall cap mw now n tr, 0 <= cap ->
  let k := krun (kinit cap mw now n) tr in holding k = 0 -> k_ext k = 0 -> k_held k = 0.
Proof. exact all_permits_back. Qed.
Print Assumptions C06_all_permits_back.

(* a free permit is not lost to the timer race: phase 1 takes it *)
Theorem C06_free_permit_is_taken : forall k i, kget k i = KIdle -> k_held k < k_cap k -> kget (kstep_do k (KEnter i)) i = KHolding.
Proof. exact free_permit_is_taken. Qed.
Print Assumptions C06_free_permit_is_taken.

(* refused and cancelled executions never return a permit they did not get *)
Theorem C06_only_holders_release : forall k i, kget k i <> KHolding -> kstep_do k (KFinish i) = k.
Proof. exact only_holders_release. Qed.
Print Assumptions C06_only_holders_release.

(* the executor side (Model/Exec.v): around an inner layer that leaves the permit count as it found it, however it ends -
   success, failure, cancellation, timeout - the bulkhead layer does so too: an admitted execution returns its permit exactly once *)
Theorem C06_layer_returns_its_permit_on_every_path : forall pos inst mw (inner : layer) c w,
  (inst < length (w_bulkheads w))%nat ->
  (forall c' w', (inst < length (w_bulkheads w'))%nat ->
     held_of (snd (inner c' w')) inst = held_of w' inst /\ (inst < length (w_bulkheads (snd (inner c' w'))))%nat) ->
  held_of (snd (bulkhead_layer pos inst mw inner c w)) inst = held_of w inst.
Proof. exact bulkhead_layer_balanced. Qed.
Print Assumptions C06_layer_returns_its_permit_on_every_path.
