(* C07: Timeout outcome is exclusive and consistent, and never early. *)
From FS Require Import Model.Exec Model.TimeoutRace Proofs.ExecProofs Proofs.TimeoutRaceProofs Corr.C07.

(* the compare-and-swap protocol between the timer callback and the caller (Model/TimeoutRace.v):
   EVERY interleaving of the atomic steps, of any length, that reaches quiescence ends either with the
   inner result, zero listener calls and no cancellation, or with the timeout result, exactly one
   listener call and the cancellation — never a mixture *)
Theorem C07_timeout_exclusive : forall blocking tr,
  quiescent (run (init blocking) tr) = true -> exclusive (run (init blocking) tr) = true.
Proof. exact timeout_exclusive. Qed.
Print Assumptions C07_timeout_exclusive.

(* a function that only returns on cancellation always ends in ErrExceeded *)
Theorem C07_blocks_until_cancel_always_exceeds : forall tr,
  s_m (run (init true) tr) = MDone -> s_ret (run (init true) tr) = CTimeout.
Proof. exact blocks_until_cancel_always_exceeds. Qed.
Print Assumptions C07_blocks_until_cancel_always_exceeds.

(* timed level (Model/Exec.v), any inner layer: the Timeout returns either ErrExceeded, when its own timer
   won, or the result and error of the inner layer *)
Theorem C07_timeout_layer_outcome : forall pos limit (inner : layer) c w,
  let s := length (w_scopes w) in
  let res := timeout_layer pos limit inner c w in
  (sc_fired (get_scope (snd res) s) = true /\ fst res = with_failure (failure_result ETimeout))
  \/ (sc_fired (get_scope (snd res) s) = false /\
      exists r, pr_out (fst res) = pr_out r /\ (fst res = with_failure r \/ fst res = with_done r true true)).
Proof. exact timeout_layer_outcome. Qed.
Print Assumptions C07_timeout_layer_outcome.

(* never early: a timer callback is selected only with its own pending deadline, and runs on a clock that has reached it *)
Theorem C07_timeout_fires_not_early : forall w t s, next_timer w = Some (t, Some s) ->
  sc_deadline (get_scope w s) = Some t /\ t <= w_now (set_now w (Z.max (w_now w) t)).
Proof. intros w t s H. split; [apply next_timer_deadline; exact H|cbn; lia]. Qed.
Print Assumptions C07_timeout_fires_not_early.

(* the limit applies afresh to every application (every attempt of an enclosing retry) *)
Theorem C07_limit_afresh_per_application : forall pos limit (inner : layer) c w,
  sc_deadline (get_scope (timeout_entry_world pos limit c w) (length (w_scopes w))) = Some (w_now w + limit)
  /\ snd (timeout_layer pos limit inner c w) =
      let w3 := snd (inner (length (w_copies w)) (timeout_entry_world pos limit c w)) in
      set_scopes w3 (upd (length (w_scopes w)) (fun sc => {| sc_deadline := None; sc_fired := sc_fired sc; sc_done := sc_done sc;
                                              sc_copy := sc_copy sc; sc_pos := sc_pos sc |}) (w_scopes w3)) (w_seq w3) (w_ext w3).
Proof. exact timeout_deadline_is_entry_plus_limit. Qed.
Print Assumptions C07_limit_afresh_per_application.
