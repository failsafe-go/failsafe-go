(* C12: Failure classification follows the documented handle-condition rules. *)
From FS Require Import Spec.ClassifySpec Proofs.ClassifyProofs Corr.C12.
From Coq Require Import Permutation.

(* For every list of registrations (any subset, order, repetition) and every
   outcome the classification computed by the code equals the documented rule. *)
Theorem C12_is_failure_documented : forall calls o,
  is_failure (build_fpolicy calls) o = documented_is_failure calls o.
Proof. exact is_failure_documented. Qed.
Print Assumptions C12_is_failure_documented.

(* The property's own wording, as a logical truth table. *)
Theorem C12_is_failure_truth_table : forall calls o,
  is_failure (build_fpolicy calls) o = true <->
    (all_conds calls = [] /\ has_err o = true)
    \/ (exists c, In c (all_conds calls) /\ cond_matches o c = true)
    \/ (has_err o = true /\ forall c, In c calls -> error_handling_call c = false).
Proof. exact is_failure_truth_table. Qed.
Print Assumptions C12_is_failure_truth_table.

Theorem C12_result_cond_only_without_error : forall r k e,
  cond_matches (r, Some e) (CResult k) = false.
Proof. exact result_cond_only_without_error. Qed.
Print Assumptions C12_result_cond_only_without_error.

Theorem C12_order_irrelevant : forall calls calls' o,
  Permutation calls calls' ->
  is_failure (build_fpolicy calls) o = is_failure (build_fpolicy calls') o.
Proof. exact order_irrelevant. Qed.
Print Assumptions C12_order_irrelevant.

Theorem C12_errors_is_spec : forall e t, errors_is e t = true <-> is_documented e t.
Proof. exact errors_is_spec. Qed.
Print Assumptions C12_errors_is_spec.

Theorem C12_error_types_spec : forall e tt, error_as e tt = true <-> type_documented e tt.
Proof. exact error_as_spec. Qed.
Print Assumptions C12_error_types_spec.

Theorem C12_is_abortable_documented : forall calls o,
  is_abortable (build_abort calls) o = documented_is_abortable calls o.
Proof. exact is_abortable_documented. Qed.
Print Assumptions C12_is_abortable_documented.

Theorem C12_hedge_cancel_documented : forall calls o,
  is_abortable (build_hedge_cancel calls) o = documented_hedge_cancels calls o.
Proof. exact hedge_cancel_documented. Qed.
Print Assumptions C12_hedge_cancel_documented.

(* Consequence used by the correspondence: whenever the implementation's
   observation equals the model's, it satisfies the documented rule. *)
Theorem C12_checker_sound : forall c, model_obs c = documented_obs c.
Proof.
  intros [id r calls o b | id calls o b | id calls o b | id e t b | id e t b]; cbn [model_obs documented_obs].
  - exact (is_failure_documented calls o).
  - exact (is_abortable_documented calls o).
  - exact (hedge_cancel_documented calls o).
  - reflexivity.
  - reflexivity.
Qed.
Print Assumptions C12_checker_sound.

(* Finding F2 (repaired in /repo by a fix: commit): the closures as found ([is_failure_prefix]) do not satisfy the documented rule. *)
Theorem C12_refuted_before_fix :
  exists calls o, is_failure_prefix (build_fpolicy calls) o <> documented_is_failure calls o.
Proof. exact is_failure_documented_refuted_before_fix. Qed.
Print Assumptions C12_refuted_before_fix.
